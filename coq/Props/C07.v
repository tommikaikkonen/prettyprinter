(** C07 - bundled printers are total, and faithful for standard-library types.
    Statements only; proofs in Proofs/StdlibProofs.v (the datetime family),
    StdCollProofs.v (collections) and EndToEnd.v (what the engine emits). *)
From PP Require Import Stdlib StdlibProofs.

(** pretty_timedelta: whatever the (normalised, non-negative) delta - any
    number of days, no bound - the keywords printed (zero ones dropped; days
    split into  years * 365 + days  when at least a year) add up, with the
    constructor's weights, to exactly the delta. *)
Theorem C07_timedelta_roundtrip :
  forall d s u : Z, 0 <= d -> 0 <= s < 86400 -> 0 <= u < 1000000 ->
    timedelta_value (timedelta_kwargs d s u) = (d * 86400 + s) * 1000000 + u.
Proof. intros d s u _ _ _. apply timedelta_value_kwargs. Qed.
Print Assumptions C07_timedelta_roundtrip.

(** pretty_datetime: dropping the zero SUFFIX microsecond, second, minute,
    hour and using the three-positional form when only year, month, day remain
    loses nothing: the constructor (omitted keywords = 0) rebuilds every field,
    the tzinfo presence and the fold. *)
Theorem C07_datetime_roundtrip :
  forall (y mo d h mi s us : Z) (has_tz fold : bool), 1 <= y -> 1 <= mo -> 1 <= d ->
    datetime_fields (datetime_out y mo d h mi s us has_tz fold) = ([y; mo; d; h; mi; s; us], has_tz, fold).
Proof. intros y mo d h mi s us has_tz fold _ _. apply datetime_roundtrip. Qed.
Print Assumptions C07_datetime_roundtrip.

Theorem C07_time_roundtrip :
  forall (h mi s us : Z) (has_tz : bool) (fold : Z),
    time_fields (time_out h mi s us has_tz fold) = ([h; mi; s; us], has_tz, fold).
Proof. exact time_roundtrip. Qed.
Print Assumptions C07_time_roundtrip.

(** Non-vacuity *)
Example C07_example_timedelta :
  timedelta_kwargs 800 3 1500 = [("days", DYears 2 70); ("seconds", DInt 3); ("milliseconds", DInt 1); ("microseconds", DInt 500)]%string.
Proof. vm_compute. reflexivity. Qed.
Example C07_example_datetime :
  datetime_out 2020 1 2 0 0 0 0 false false = DPos [2020; 1; 2] /\
  datetime_out 2020 1 2 3 0 0 0 true false = DKw [("year", KInt 2020); ("month", KInt 1); ("day", KInt 2); ("hour", KInt 3); ("tzinfo", KTz)]%string.
Proof. split; vm_compute; reflexivity. Qed.

(** the collections (pretty_stdlib.py 258-344; Model/StdColl.v)
    OrderedDict, deque, defaultdict, Counter, ChainMap, mappingproxy,
    exceptions and functools.partial are printed as the call their printer
    hands to pretty_call_alt: [std_print] (compared with the implementation's
    text on generated objects on every run).  For such a call everything
    proved about calls holds (C17, C01_engine_output_evaluates); here:

    (1) the printed text - at every width, ribbon, indent, with or without
        sort_dict_keys, any max_seq_len >= 1 - evaluates to the call with
        every argument evaluated (instance of C01_roundtrip_general); *)
From PP Require Import Doc PyVal Printers PyExpr PyEval EvalRT StdColl StdCollProofs.
Theorem C07_collections_evaluate :
  forall (env : str -> option target),
    env n_float = None -> env n_frozenset = None -> env n_set = None ->
    forall (n : Z) (sort : bool), (1 <= n)%Z ->
    forall x : stdval, evaluable env (std_print x) ->
      eval env (expr_of (mkE None n sort) (std_print x) false) = Some (norm n sort (std_print x)).
Proof. intros. now apply eval_expr_of. Qed.
Print Assumptions C07_collections_evaluate.

(** (2) the items of an OrderedDict and the elements of a deque come back in
        their OWN order, sort_dict_keys or not, as long as nothing is cut; *)
Theorem C07_ordereddict_order_kept :
  forall (n : Z) (sort : bool) (c : clsinfo) (kvs : items),
    (2 <= n)%Z -> (Z.of_nat (length kvs) <= n)%Z ->
    norm n sort (std_print (SOrdered c kvs)) = std_print (SOrdered c (map (normpair n sort) kvs)).
Proof. exact ordered_order_kept. Qed.
Print Assumptions C07_ordereddict_order_kept.

Theorem C07_deque_order_kept :
  forall (n : Z) (sort : bool) (c : clsinfo) (els : list pyval) (ml : option Z),
    (Z.of_nat (length els) <= n)%Z ->
    norm n sort (std_print (SDeque c els ml)) = std_print (SDeque c (map (norm n sort) els) ml).
Proof. exact deque_order_kept. Qed.
Print Assumptions C07_deque_order_kept.

(** (3) what the constructors make of that call ([std_rebuild]: OrderedDict
        from pairs - a repeated key keeps its place and takes the last value -,
        deque(iterable, maxlen) keeping the last maxlen elements, ChainMap()
        holding one empty dict, the others storing their arguments) is the
        printed object, for every object satisfying CPython's own invariants
        (pairwise different keys under ==, len <= maxlen); a ChainMap without
        content comes back as ChainMap(). *)
Theorem C07_collections_rebuild :
  forall (keq : pyval -> pyval -> bool) (x : stdval),
    std_ok keq x -> std_rebuild keq (kind_of x) (std_print x) = Some (canon x).
Proof. exact std_rebuild_print. Qed.
Print Assumptions C07_collections_rebuild.

Example C07_example_ordered :
  let od := SOrdered (mkCls [79; 68]%N 4) [(VStr [98]%N, VInt 1); (VStr [97]%N, VInt 2)] in
  std_ok (fun a b => match a, b with VStr s, VStr t => if list_eq_dec N.eq_dec s t then true else false | _, _ => false end) od /\
  norm 1000 true (std_print od) = std_print od.
Proof. split; vm_compute; reflexivity. Qed.

(** (4) and at the engine level: the stream the model of the layout engine
        emits for a collection glues to the tokens of an expression evaluating
        to that call (C01_engine_output_evaluates instantiated). *)
From PP Require Import Sem Pformat PrettyToks3 StrBridge EndToEnd.
Theorem C07_collections_engine_output :
  forall (printable sp wd lb : N -> bool) (fuel ff : nat) (env : str -> option target),
    env n_float = None -> env n_frozenset = None -> env n_set = None ->
    forall (x : stdval) (indent width rw : Z) (n : Z) (sort : bool) (out : list sdoc),
    (1 <= n)%Z -> wf_val (std_print x) -> evaluable env (std_print x) ->
    sdocs_model printable sp wd lb fuel ff (std_print x) indent width rw None n sort = Some out ->
    exists e, Glue printable (rtoks (strip out) NNormal) (etoks e) /\ eval env e = Some (norm n sort (std_print x)).
Proof.
  intros printable sp wd lb fuel ff env E1 E2 E3 x.
  exact (engine_output_evaluates printable sp wd lb fuel ff env E1 E2 E3 (std_print x)).
Qed.
Print Assumptions C07_collections_engine_output.
