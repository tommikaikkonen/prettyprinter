(** C15 - printer dispatch follows the class hierarchy for every registration
    history.  Statements only; proofs in Proofs/DispatchProofs.v. *)
From PP Require Import Doc Dispatch DispatchProofs.

(** Refinement: for every class lattice ([mro], head = the class itself),
    every predicate behaviour and EVERY history of registrations by class, by
    name and by predicate interleaved with prints and is_registered queries,
    the observations of the implementation model (which printer ran; the
    booleans / ValueError of is_registered) are those of the abstract rule:
    nearest class in the MRO with a registration (the latest one for that
    class, deferred and direct being equivalent), else the first-registered
    accepting predicate, else repr.  Predicates are applied to the INSTANCE
    (Print c i: instance tag i of class c): they may look at the value. *)
Theorem C15_refines :
  forall (mro : cls -> list cls) (accepts : pd -> nat -> bool),
    (forall c, exists tl, mro c = c :: tl) ->
    forall h, forallb cd_query h = true ->
      drun mro accepts dinit h = srun mro accepts sinit h.
Proof. intros mro accepts Hm h. exact (refines mro accepts Hm h dinit sinit Inv_init). Qed.
Print Assumptions C15_refines.

(** with register_deferred=False is_registered changes nothing at all *)
Theorem C15_isreg_pure :
  forall mro st c cs cd, snd (isreg mro st c cs cd false) = st.
Proof. exact isreg_pure. Qed.
Print Assumptions C15_isreg_pure.

(** check_deferred=False ignores printers still registered by name only (an
    implementation-level distinction the rule does not make); a positive
    answer is still sound for the rule *)
Theorem C15_isreg_nodeferred_sound :
  forall mro, (forall c, exists tl, mro c = c :: tl) ->
  forall st c cs,
    fst (isreg mro st c cs false false) = Some true ->
    exists p, first_abs (if cs then mro c else [c]) st = Some p.
Proof. exact isreg_nodeferred_sound. Qed.
Print Assumptions C15_isreg_nodeferred_sound.

(** Non-vacuity, and the history of the repaired defect: RegName C p2;
    RegClass C p1; Print C; Print E(C); Print C  -  all three print with p1
    (before fix 4 the model, like the code, answered p1, p2, p2). *)
Example C15_stale_deferred_history :
  let mro := fun c => match c with 1 => [1; 0] | c => [c] end%nat in
  drun mro (fun _ _ => false) dinit [RegName 0 2; RegClass 0 1; Print 0 0; Print 1 1; Print 0 0]%nat
  = [OUnit; OUnit; OChosen (ByPrinter 1); OChosen (ByPrinter 1); OChosen (ByPrinter 1)]%nat.
Proof. vm_compute. reflexivity. Qed.
