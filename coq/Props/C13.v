(** C13 - cycles are cut exactly at back-references; shared substructure
    prints in full.  Statements only; proofs in Proofs/GraphProofs.v. *)
From PP Require Import Doc PyVal Graph GraphProofs.

(** The stateful traversal of the code - one mutable visited set shared by the
    whole call, start_visit / end_visit around every printer call - computes,
    for EVERY heap (any size, any cycles, any sharing), exactly the pure
    unfolding [gspec] of the object graph in which an object is replaced by its
    recursion marker iff it is among the ANCESTORS of the position (it is
    "reached again while it is still being printed"), and leaves the visited
    set as it found it. *)
Theorem C13_markers_exactly_at_back_references :
  forall (h : heap) (info : ginfo), no_nondoc h ->
  forall fuel r st res st', grun h info fuel r st = (res, st') ->
    (res = GFuel /\ gspec h info fuel (g_visited st) r = None) \/
    exists t, res = GOk t /\ gspec h info fuel (g_visited st) r = Some t /\
              g_visited st' = g_visited st /\
              g_warns st' = g_warns st ++ gwarns h fuel (g_visited st) r.
Proof. exact grun_refines. Qed.
Print Assumptions C13_markers_exactly_at_back_references.

(** Printing terminates: with the fuel the driver uses (heap size + 1) the
    traversal never runs out, whatever the graph. *)
Theorem C13_total :
  forall (h : heap) (info : ginfo), no_nondoc h -> forall root,
    fst (gprint h info (S (length h)) root) <> GFuel.
Proof. exact grun_total. Qed.
Print Assumptions C13_total.

(** An object that merely occurs several times without containing any of its
    ancestors is printed in full, and identically, at each occurrence. *)
Theorem C13_sharing :
  forall (h : heap) (info : ginfo) fuel anc r,
    (forall x, reach h r x -> ~ In x anc) ->
    gspec h info fuel anc r = gspec h info fuel [] r.
Proof. exact gspec_acyclic_occurrence. Qed.
Print Assumptions C13_sharing.

(** No residue: a whole print starts from the empty visited set and ends with
    it, so a later print behaves as a first one. *)
Theorem C13_no_residue :
  forall (h : heap) (info : ginfo), no_nondoc h ->
  forall fuel root res st', gprint h info fuel root = (res, st') -> res <> GFuel -> g_visited st' = [].
Proof. intros h info _ fuel root. exact (visited_restored h info fuel root (mkG [] [])). Qed.
Print Assumptions C13_no_residue.

(** Non-vacuity: a list containing itself twice and a shared acyclic list. *)
Definition c13_info : ginfo := mkInfo (fun r => [60; N.of_nat r + 48; 62]%N) (fun _ => []).
Example C13_example :
  gprint [GList [0; 1; 1]%nat; GList [2%nat]; GLeaf (VInt 7)] c13_info 4 0
  = (GOk (VList [VRepr [60; 48; 62]%N; VList [VInt 7]; VList [VInt 7]]), mkG [] []).
Proof. vm_compute. reflexivity. Qed.

(** ... and on every exit, exceptional ones included (any heap, any faults) *)
Theorem C13_visited_restored :
  forall (h : heap) (info : ginfo) fuel r st res st',
    grun h info fuel r st = (res, st') -> res <> GFuel -> g_visited st' = g_visited st.
Proof. exact visited_restored. Qed.
Print Assumptions C13_visited_restored.
