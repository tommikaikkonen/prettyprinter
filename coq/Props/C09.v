(** C09 - comments are inert and preserved.  Statements only. *)
From PP Require Import Doc PyVal Printers Pformat PyExpr PyEval PrettyToks3 EvalRT.

(** the value without its comment wrappers *)
Fixpoint strip (v : pyval) : pyval :=
  match v with
  | VCommented x _ | VTrailing x _ => strip x
  | VList l => VList (map strip l)
  | VTuple l => VTuple (map strip l)
  | VSet l => VSet (map strip l)
  | VFrozenset l => VFrozenset (map strip l)
  | VDict kvs so => VDict (map (fun kv => (strip (fst kv), strip (snd kv))) kvs) so
  | VSub c b => VSub c (strip b)
  | VCall f args kw => VCall f (map strip args) (map (fun kv => (fst kv, strip (snd kv))) kw)
  | x => x
  end.

(** Whatever comments and trailing comments are attached, with whatever text,
    anywhere in the value: in EVERY layout of the printed document the
    non-comment content is the token sequence of [expr_of], and [expr_of]
    ignores comment wrappers altogether (it has no access to the texts), apart
    from the trailing comma a trailing comment adds.  Every comment is emitted
    under the COMMENT_SINGLE annotation ([DT_comment] is the only rule that
    discards text), so nothing of a comment contributes a token. *)
Theorem C09_denotes :
  forall (is_space_u is_linebreak : N -> bool) (v : pyval) (indent : Z) (depth : option Z) (maxlen : Z) (sort : bool),
    wf_val v ->
    DT (top_doc is_space_u is_linebreak v indent depth maxlen sort)
       (etoks (expr_of (mkE depth maxlen sort) v false)).
Proof. exact top_doc_DT. Qed.
Print Assumptions C09_denotes.

Theorem C09_comment_text_irrelevant :
  forall (c : ectx) (v : pyval) (t1 t2 : str) (tr : bool),
    expr_of c (VCommented v t1) tr = expr_of c (VCommented v t2) tr /\
    expr_of c (VCommented v t1) tr = expr_of c v tr /\
    (t1 <> [] -> t2 <> [] -> expr_of c (VTrailing v t1) tr = expr_of c (VTrailing v t2) tr).
Proof.
  intros. repeat split. intros H1 H2. cbn [expr_of]. destruct t1, t2; congruence.
Qed.
Print Assumptions C09_comment_text_irrelevant.

(** ... and the expression still evaluates to the comment-free value: the same
    result as for the stripped value, down to the one-element tuple. *)
Theorem C09_inert :
  forall (env : str -> option target),
    env n_float = None -> env n_frozenset = None -> env n_set = None ->
    forall (n : Z) (sort : bool), (1 <= n)%Z ->
    forall (v : pyval) (tr : bool), evaluable env v ->
      eval env (expr_of (mkE None n sort) v tr) = Some (norm n sort v).
Proof. exact eval_expr_of. Qed.
Print Assumptions C09_inert.

(** At the engine level, for every well-formed value (strings included), width,
    ribbon, indent, depth, max_seq_len: the streams emitted for a value and
    for the same value under a comment glue to the SAME expression tokens -
    the comment adds comment-annotated text and changes the layout, nothing
    else (Proofs/StrBridge.v, EndToEnd.v). *)
From PP Require Import Sem StrBridge EndToEnd.
Theorem C09_engine_comment_inert :
  forall (printable sp wd lb : N -> bool) (fuel ff : nat) (v : pyval) (t : str) (indent width rw : Z)
         (depth : option Z) (maxlen : Z) (sort : bool) (out1 out2 : list sdoc),
    wf_val v -> wf_val (VCommented v t) ->
    sdocs_model printable sp wd lb fuel ff v indent width rw depth maxlen sort = Some out1 ->
    sdocs_model printable sp wd lb fuel ff (VCommented v t) indent width rw depth maxlen sort = Some out2 ->
    exists ts, Glue printable (rtoks (strip out1) NNormal) ts /\ Glue printable (rtoks (strip out2) NNormal) ts.
Proof.
  intros. exists (etoks (expr_of (mkE depth maxlen sort) v false)).
  split; [exact (engine_output_glues _ _ _ _ _ _ _ _ _ _ _ _ _ _ H H1)|exact (engine_output_glues _ _ _ _ _ _ _ _ _ _ _ _ _ _ H0 H2)].
Qed.
Print Assumptions C09_engine_comment_inert.

Example C09_example :
  norm 1000 false (VTuple [VCommented (VInt 1) [99]%N]) = VTuple [VInt 1] /\
  eval (fun _ => None) (expr_of (mkE None 1000 false) (VTrailing (VTuple [VCommented (VInt 1) [99; 10; 10; 35]%N]) [116]%N) false)
  = Some (VTuple [VInt 1]).
Proof. split; vm_compute; reflexivity. Qed.
