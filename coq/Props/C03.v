(** C03 - width, ribbon and indent change only the layout, never the content.
    Statements only; proofs are in Proofs/. *)
From PP Require Import Doc PyVal Printers Pformat PyExpr PrettyToks2 PrettyToks3.

(** Width and ribbon width are not inputs of the document that
    python_to_sdocs builds ([top_doc] has no such parameter: they only steer
    the choice among its layouts), and the indent changes the document only in
    its nest offsets: for EVERY well-formed value of the model universe
    (built-ins, subclass instances, commented values, objects printed through
    pretty_call, paths), two prints under different indents - and under any
    width / ribbon - denote in every layout the same token sequence, the one
    of [expr_of], which mentions none of the three settings. *)
Theorem C03_same_tokens :
  forall (is_space_u is_linebreak : N -> bool) (v : pyval) (indent1 indent2 : Z)
         (depth : option Z) (maxlen : Z) (sort : bool),
    wf_val v ->
    exists ts,
      ts = etoks (expr_of (mkE depth maxlen sort) v false) /\
      DT (top_doc is_space_u is_linebreak v indent1 depth maxlen sort) ts /\
      DT (top_doc is_space_u is_linebreak v indent2 depth maxlen sort) ts.
Proof.
  intros. eexists. split; [reflexivity|]. split; now apply top_doc_DT.
Qed.
Print Assumptions C03_same_tokens.

(** the multiline strategy of the string printer and the attached comments do
    not matter either (general form, any context) *)
Theorem C03_tokens_any_context :
  forall (is_space_u is_linebreak : N -> bool) (v : pyval) (ctx : pctx) (cm tr : option str),
    wf_val v ->
    DT (pretty_pv is_space_u is_linebreak v ctx cm tr)
       (etoks (expr_of (ectx_of ctx) v (trb tr))).
Proof. exact pretty_pv_DT. Qed.
Print Assumptions C03_tokens_any_context.

(** Non-vacuity: a commented subclass instance inside a call is well-formed. *)
Example C03_example_wf :
  wf_val (VCall (mkCls [102]%N 4) [VCommented (VSub (mkCls [77]%N 4) (VList [VInt 1])) [99]%N]
                [([107]%N, VTrailing (VTuple [VStr []]) [116]%N)]).
Proof. cbn. repeat split; discriminate. Qed.

(** For string-free values the statement holds for the streams the layout
    engine really emits: two prints of the same value under ANY two widths,
    ribbons and indents carry the same token sequence. *)
From PP Require Import Sem LayToks CleanDocs EndToEnd.
Theorem C03_engine_outputs_same_tokens :
  forall (printable sp wd lb : N -> bool) (fuel ff : nat) (v : pyval) (depth : option Z) (maxlen : Z) (sort : bool)
         (indent1 width1 rw1 indent2 width2 rw2 : Z) (out1 out2 : list sdoc),
    nostr v -> wf_val v ->
    sdocs_model printable sp wd lb fuel ff v indent1 width1 rw1 depth maxlen sort = Some out1 ->
    sdocs_model printable sp wd lb fuel ff v indent2 width2 rw2 depth maxlen sort = Some out2 ->
    stoks (strip out1) MNormal = stoks (strip out2) MNormal.
Proof.
  intros. transitivity (etoks (expr_of (mkE depth maxlen sort) v false)); [|symmetry];
    eapply engine_output_tokens; eassumption.
Qed.
Print Assumptions C03_engine_outputs_same_tokens.

(** ... and for every value, strings included: both streams glue (literal
    pieces of a string value merged, C01_engine_output_tokens_all) to the SAME
    expression tokens, however differently the two layouts split each string. *)
From PP Require Import StrBridge.
Theorem C03_engine_outputs_same_tokens_all :
  forall (printable sp wd lb : N -> bool) (fuel ff : nat) (v : pyval) (depth : option Z) (maxlen : Z) (sort : bool)
         (indent1 width1 rw1 indent2 width2 rw2 : Z) (out1 out2 : list sdoc),
    wf_val v ->
    sdocs_model printable sp wd lb fuel ff v indent1 width1 rw1 depth maxlen sort = Some out1 ->
    sdocs_model printable sp wd lb fuel ff v indent2 width2 rw2 depth maxlen sort = Some out2 ->
    exists ts, Glue printable (rtoks (strip out1) NNormal) ts /\ Glue printable (rtoks (strip out2) NNormal) ts.
Proof.
  intros. exists (etoks (expr_of (mkE depth maxlen sort) v false)).
  split; eapply engine_output_glues; eassumption.
Qed.
Print Assumptions C03_engine_outputs_same_tokens_all.

(** Every output line is indented by a multiple of the indent setting: every
    line break the model of the layout engine emits - for ANY value of the
    model universe (strings and their multi-line strategies included), at every
    width, ribbon, depth, max_seq_len - carries an indentation divisible by the
    indent.  (Every nest offset the printers use is ctx.indent, they never use
    align, the string printer's evaluator is handed ctx.indent: CleanDocs.v;
    layouts only add nest offsets: IndentMult.v; the engine only emits layouts:
    C04_membership.) *)
From PP Require Import IndentE2E.
Theorem C03_indent_multiple :
  forall (printable sp wd lb : N -> bool) (fuel ff : nat) (v : pyval) (indent width rw : Z)
         (depth : option Z) (maxlen : Z) (sort : bool) (out : list sdoc),
    sdocs_model printable sp wd lb fuel ff v indent width rw depth maxlen sort = Some out ->
    forall j, In (SLine j) out -> (indent | j)%Z.
Proof. exact indent_multiple. Qed.
Print Assumptions C03_indent_multiple.
