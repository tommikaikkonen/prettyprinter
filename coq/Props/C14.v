(** C14 - a failing printer is contained at the value it was printing.
    Statements only; proofs in Proofs/GraphProofs.v. *)
From PP Require Import Doc PyVal Graph GraphProofs.

(** For EVERY heap (any nesting, cycles, sharing) and any set of user printers
    that raise - before or after printing their arguments - the print returns,
    its value is the pure unfolding [gspec] in which exactly the failing
    objects are their repr, the warnings are exactly the failing printers met
    along the traversal in order ([gwarns]), and the visited set is restored
    (so a later occurrence of the same object is not mistaken for a cycle). *)
Theorem C14_contained :
  forall (h : heap) (info : ginfo), no_nondoc h ->
  forall fuel r st res st', grun h info fuel r st = (res, st') ->
    (res = GFuel /\ gspec h info fuel (g_visited st) r = None) \/
    exists t, res = GOk t /\ gspec h info fuel (g_visited st) r = Some t /\
              g_visited st' = g_visited st /\
              g_warns st' = g_warns st ++ gwarns h fuel (g_visited st) r.
Proof. exact grun_refines. Qed.
Print Assumptions C14_contained.

(** "Every other part of the output is exactly what it would have been": the
    value printed is the value printed for the heap in which each failing
    object has been replaced by an opaque leaf showing its repr. *)
Theorem C14_rest_unchanged :
  forall (h : heap) (info : ginfo) fuel anc r t,
    gspec h info fuel anc r = Some t -> gspec (patch info h) info fuel anc r = Some t.
Proof. exact gspec_patch. Qed.
Print Assumptions C14_rest_unchanged.

(** A printer that returns neither str nor Doc at the top level: ValueError. *)
Theorem C14_nondoc :
  forall (h : heap) (info : ginfo) fuel root fn args,
    nth_error h root = Some (GUser fn args FNonDoc) ->
    fst (gprint h info (S fuel) root) = GExc.
Proof. exact nondoc_top. Qed.
Print Assumptions C14_nondoc.

(** Non-vacuity: the second element fails after printing its argument, which
    fails too: two warnings, inner first; the first element is untouched. *)
Definition c14_info : ginfo := mkInfo (fun _ => []) (fun r => [82; N.of_nat r + 48]%N).
Definition c14_f : clsinfo := mkCls [102]%N 4.
Example C14_example :
  gprint [GList [1; 2]%nat; GLeaf (VInt 1); GUser c14_f [3%nat] FRaiseAfter; GUser c14_f [] FRaise] c14_info 5 0
  = (GOk (VList [VInt 1; VRepr [82; 50]%N]), mkG [] [(3, false); (2, false)]%nat).
Proof. vm_compute. reflexivity. Qed.

(** The visited set is restored on EVERY exit of a printer call - also when a
    non-document makes the return-type check raise (after the fix: end_visit
    precedes the check) - so no failure leaves an object marked as "being
    printed": later occurrences of it in the same call, and later calls, are
    unaffected.  Holds for every heap, with any faults. *)
Theorem C14_later_occurrences_unaffected :
  forall (h : heap) (info : ginfo) fuel r st res st',
    grun h info fuel r st = (res, st') -> res <> GFuel -> g_visited st' = g_visited st.
Proof. exact visited_restored. Qed.
Print Assumptions C14_later_occurrences_unaffected.
