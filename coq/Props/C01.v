(** C01 - printed built-in values evaluate back to an equal value of the same
    types.  Statements only; proofs are in Proofs/. *)
From Coq Require Import Lia.
From PP Require Import Doc PyVal Printers Pformat PyExpr PyEval PrettyToks3 EvalRT NormFits.

(** (1) What is handed to the layout engine.  For every built-in value and
    every indent / depth / max_seq_len / sort setting, the document built by
    python_to_sdocs denotes - in EVERY layout, i.e. whichever branch of every
    flat_choice is taken and however the string printer splits its literals
    (the [DT] projection; width and ribbon only select among those layouts) -
    exactly the token sequence of the expression [expr_of] prescribes, which
    mentions neither width, ribbon, indent nor multiline strategy. *)
Theorem C01_denotes :
  forall (is_space_u is_linebreak : N -> bool) (v : pyval) (indent : Z) (depth : option Z)
         (maxlen : Z) (sort : bool),
    builtin v ->
    DT (top_doc is_space_u is_linebreak v indent depth maxlen sort)
       (etoks (expr_of (mkE depth maxlen sort) v false)).
Proof. intros. apply top_doc_DT. now apply builtin_wf. Qed.
Print Assumptions C01_denotes.

(** (2) That expression evaluates - with no name in scope but the built-ins -
    to the value itself: the same constructor (= exact type) at every
    position, float literals as their repr (so 0.0 / -0.0 differ), inf / -inf /
    nan through float('...'), sets through set literals or set(), one-element
    tuples with their comma; dict entries in insertion order, or in the order
    sorted(keys, key=_AlwaysSortable) produced when sorting is requested
    ([canon]).  Holds whenever depth is None and no container is longer than
    max_seq_len. *)
Theorem C01_roundtrip :
  forall (n : Z) (sort : bool) (v : pyval),
    (1 <= n)%Z -> builtin v -> fits n v ->
    eval (fun _ => None) (expr_of (mkE None n sort) v false) = Some (canon sort v).
Proof.
  intros n sort v Hn Hb Hf. rewrite <- (norm_fits n sort v Hb Hf).
  now apply eval_expr_of, builtin_evaluable.
Qed.
Print Assumptions C01_roundtrip.

(** the general statement behind (2): any evaluable value (subclass instances,
    objects printed through pretty_call, paths, comments attached anywhere),
    any max_seq_len >= 1 *)
Theorem C01_roundtrip_general :
  forall (env : str -> option target),
    env n_float = None -> env n_frozenset = None -> env n_set = None ->
    forall (n : Z) (sort : bool), (1 <= n)%Z ->
    forall (v : pyval) (tr : bool), evaluable env v ->
      eval env (expr_of (mkE None n sort) v tr) = Some (norm n sort v).
Proof. exact eval_expr_of. Qed.
Print Assumptions C01_roundtrip_general.

(** Non-vacuity: a concrete value meets the hypotheses; the model prints it
    and the expression evaluates back. *)
Definition c01_example : pyval :=
  VList [VInt (-1); VTuple [VNone]; VDict [(VStr [97]%N, VBool true); (VInt 2, VFloat [45; 48; 46; 48]%N)] [1%nat; 0%nat];
         VSet []; VFrozenset [VNan]; VBytes []].
Example C01_example_hyps : builtin c01_example /\ fits 1000 c01_example.
Proof. cbn. repeat split; lia. Qed.
Example C01_example_eval :
  eval (fun _ => None) (expr_of (mkE None 1000 true) c01_example false) = Some (canon true c01_example).
Proof. vm_compute. reflexivity. Qed.
Example C01_model_runs :
  pformat_model (fun _ => true) (fun c => N.eqb c 32) (fun _ => true) (fun c => N.eqb c 10)
    200 200 (VList [VInt 1; VTuple [VNone]; VDict [(VStr [97]%N, VBool true)] [0%nat]]) 4 79 71 None 1000 false
  = Some [91; 49; 44; 32; 40; 78; 111; 110; 101; 44; 41; 44; 32; 123; 39; 97; 39; 58; 32; 84; 114; 117; 101; 125; 93]%N.
Proof. vm_compute. reflexivity. Qed.

(** (3) End to end inside Coq, for values without strings (ints, floats,
    bools, None, Ellipsis, every container, subclass instances, comments,
    pretty_call objects): the SDoc stream the model of the layout engine REALLY
    emits - any width, ribbon, indent, depth, max_seq_len, sort - carries
    exactly the tokens of [expr_of]: composition of C04_membership, the bridge
    between layouts and token projections (Proofs/LayToks.v) and (1). *)
From PP Require Import Sem LayToks CleanDocs EndToEnd.
Theorem C01_engine_output_tokens :
  forall (printable sp wd lb : N -> bool) (fuel ff : nat) (v : pyval) (indent width rw : Z)
         (depth : option Z) (maxlen : Z) (sort : bool) (out : list sdoc),
    nostr v -> wf_val v ->
    sdocs_model printable sp wd lb fuel ff v indent width rw depth maxlen sort = Some out ->
    stoks (strip out) MNormal = etoks (expr_of (mkE depth maxlen sort) v false).
Proof. exact engine_output_tokens. Qed.
Print Assumptions C01_engine_output_tokens.

(** (3b) The same for EVERY well-formed value, strings included (any split of
    any str / bytes value, each multi-line strategy, subclass wrappers, dict
    keys): the raw tokens of the stream the model of the engine really emits -
    the text under each syntax-token annotation, comments and blanks dropped -
    GLUE to the tokens of [expr_of v]: every non-string token is itself, and
    each string VALUE is the run of literal pieces  prefix q escape(l_k) q  of
    one non-empty split l_1 .. l_n of it (concat = the value), bare or inside
    one pair of parentheses.  That each such literal denotes l_k is
    C02_escape_roundtrip.  (Proofs/StrBridge.v: a second bridge whose raw
    tokens may nest annotations, the token projection of each document the
    string printer can evaluate to, and the layout induction over DT with the
    contextual case discharged by it.) *)
From PP Require Import StrBridge.
Theorem C01_engine_output_tokens_all :
  forall (printable sp wd lb : N -> bool) (fuel ff : nat) (v : pyval) (indent width rw : Z)
         (depth : option Z) (maxlen : Z) (sort : bool) (out : list sdoc),
    wf_val v ->
    sdocs_model printable sp wd lb fuel ff v indent width rw depth maxlen sort = Some out ->
    exists raw, rtoks (strip out) NNormal = raw /\
                Glue printable raw (etoks (expr_of (mkE depth maxlen sort) v false)).
Proof. exact engine_output_tokens_all. Qed.
Print Assumptions C01_engine_output_tokens_all.

(** (3c) Composition with (2): what the model of the engine emits - for any
    evaluable well-formed value, strings included, at every width, ribbon,
    indent, max_seq_len >= 1 - glues to the tokens of an expression that
    evaluates (PyEval.eval) to the value, cut to max_seq_len. *)
Theorem C01_engine_output_evaluates :
  forall (printable sp wd lb : N -> bool) (fuel ff : nat) (env : str -> option target),
    env n_float = None -> env n_frozenset = None -> env n_set = None ->
    forall (v : pyval) (indent width rw : Z) (n : Z) (sort : bool) (out : list sdoc),
    (1 <= n)%Z -> wf_val v -> evaluable env v ->
    sdocs_model printable sp wd lb fuel ff v indent width rw None n sort = Some out ->
    exists e, Glue printable (rtoks (strip out) NNormal) (etoks e) /\ eval env e = Some (norm n sort v).
Proof. exact engine_output_evaluates. Qed.
Print Assumptions C01_engine_output_evaluates.

(** (3d) Why gluing is unambiguous: in the token sequence of ANY expression no two
    string values are adjacent (between the tokens of two sub-expressions there is
    always a bracket, comma, colon, = or name) - Python's implicit concatenation of
    adjacent literals can only ever merge the pieces of ONE value, which is what
    Glue does. *)
From PP Require Import ExprSep.
Theorem C01_no_adjacent_string_values : forall e : expr, noadj (etoks e) = true.
Proof. exact etoks_noadj. Qed.
Print Assumptions C01_no_adjacent_string_values.

(** Non-vacuity: a bytes value split over two lines inside a list at width 12
    (no line shorter than the 10-column floor) - the raw tokens are the
    bracket, two  b'..'  pieces, the bracket. *)
Example C01_engine_string_example :
  option_map (fun out => rtoks (strip out) NNormal)
    (sdocs_model (fun _ => true) (fun c => N.eqb c 32) (fun c => negb (N.eqb c 32)) (fun c => N.eqb c 10) 300 300
       (VList [VBytes [97; 97; 97; 97; 32; 98; 98; 98; 98; 32; 99; 99; 99; 99; 32; 100; 100]%N]) 4 12 12 None 1000 false)
  = Some ([RTok 13 [91]%N] ++
          flat_map (piece_rt (fun _ => true) true 39%N)
                   [[97; 97; 97; 97; 32; 98; 98; 98; 98; 32]; [99; 99; 99; 99; 32; 100; 100]]%N ++
          [RTok 13 [93]%N]).
Proof. vm_compute. reflexivity. Qed.

Example C01_engine_example :
  option_map (fun out => stoks (strip out) MNormal)
    (sdocs_model (fun _ => true) (fun c => N.eqb c 32) (fun _ => true) (fun c => N.eqb c 10) 300 300
       (VList [VInt 1; VCommented (VTuple [VNone]) [99]%N; VDict [(VInt 2, VSet [])] [0%nat]]) 4 6 6 None 1000 false)
  = Some (etoks (expr_of (mkE None 1000 false)
       (VList [VInt 1; VCommented (VTuple [VNone]) [99]%N; VDict [(VInt 2, VSet [])] [0%nat]]) false)).
Proof. vm_compute. reflexivity. Qed.
