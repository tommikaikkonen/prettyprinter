(** C11 - depth cuts off exactly below the requested nesting level. Statements only. *)
From PP Require Import Doc PyVal Printers Pformat PyExpr PrettyToks3.

(** Every layout of the document printed under a depth limit denotes the
    tokens of [expr_of] at that depth (instance of the denotation theorem);
    [expr_of]'s depth clauses are the exact cut: [placeholder] / [[...]] /
    [(...)] / [{...}] when no depth is left, the nested context for elements. *)
Theorem C11_denotes :
  forall (is_space_u is_linebreak : N -> bool) (v : pyval) (indent : Z) (d : Z) (maxlen : Z) (sort : bool),
    wf_val v ->
    DT (top_doc is_space_u is_linebreak v indent (Some d) maxlen sort)
       (etoks (expr_of (mkE (Some d) maxlen sort) v false)).
Proof. intros. now apply top_doc_DT. Qed.
Print Assumptions C11_denotes.

(** with no depth left every value is its own placeholder (exactly one token
    group naming its type), except the keyword constants - the open finding
    C11-keyword-leaves, exhibited here as a theorem about the model *)
Theorem C11_cut_at_zero :
  forall (n : Z) (s : bool) (z : Z) (l : list pyval) (kvs : list (pyval * pyval)) (so : list nat) (x : pyval),
    let c := mkE (Some 0%Z) n s in
    expr_of c (VInt z) false = placeholder n_int /\
    expr_of c (VStr []) false = placeholder n_str /\
    expr_of c (VList (x :: l)) false = ESeq KList [EEllipsis] false /\
    expr_of c (VTuple (x :: l)) false = ESeq KTuple [EEllipsis] false /\
    expr_of c (VSet (x :: l)) false = placeholder n_set /\
    expr_of c (VDict kvs so) false = ESeq KSet [EEllipsis] false /\
    expr_of c (VFrozenset (x :: l)) false = placeholder n_frozenset.
Proof. intros. repeat split. Qed.
Print Assumptions C11_cut_at_zero.

Theorem C11_keyword_leaves_refuted :
  exists v, expr_of (mkE (Some 0%Z) 1000 false) v false <> placeholder [98; 111; 111; 108]%N /\
            expr_of (mkE (Some 0%Z) 1000 false) v false = EName s_True.
Proof. exists (VBool true). split; [discriminate|reflexivity]. Qed.

(** ... and so does the stream the model of the layout engine really emits
    under depth = d, for every well-formed value (strings included), width,
    ribbon, indent (composition with C04_membership and the bridge of
    Proofs/StrBridge.v): its raw tokens glue to the tokens of [expr_of] at
    depth d - placeholders exactly where [expr_of] puts them. *)
From PP Require Import Sem StrBridge EndToEnd.
Theorem C11_engine_output_tokens :
  forall (printable sp wd lb : N -> bool) (fuel ff : nat) (v : pyval) (indent width rw d maxlen : Z) (sort : bool)
         (out : list sdoc),
    wf_val v ->
    sdocs_model printable sp wd lb fuel ff v indent width rw (Some d) maxlen sort = Some out ->
    Glue printable (rtoks (strip out) NNormal) (etoks (expr_of (mkE (Some d) maxlen sort) v false)).
Proof. intros. eapply engine_output_glues; eassumption. Qed.
Print Assumptions C11_engine_output_tokens.

(** For every depth greater than the nesting height of the value the printed
    DOCUMENT - hence the text at every width and ribbon - is the one printed
    with depth=None (stated for values max_seq_len does not truncate). *)
From PP Require Import DocStable.
Theorem C11_above_height :
  forall (printable sp wd lb : N -> bool) (fuel ff : nat) (v : pyval) (indent width rw d maxlen : Z) (sort : bool),
    (Z.of_nat (hgt v) < d)%Z -> NormFits.fits maxlen v ->
    pformat_model printable sp wd lb fuel ff v indent width rw (Some d) maxlen sort
    = pformat_model printable sp wd lb fuel ff v indent width rw None maxlen sort.
Proof.
  intros. unfold pformat_model, sdocs_model, top_doc.
  now rewrite (pretty_pv_depth sp lb v (mkCtx indent (Some d) MPlain maxlen sort)).
Qed.
Print Assumptions C11_above_height.

Example C11_example_height : hgt (VList [VInt 1; VDict [(VStr [], VTuple [VNan])] [0%nat]]) = 4%nat.
Proof. reflexivity. Qed.
