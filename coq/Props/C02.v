(** C02 - string and bytes literals are reproduced exactly, however they are
    split.  Statements only; proofs in Proofs/StrEscape.v, StrSplit.v,
    StrTotal.v, StrPieces.v.  Everything holds for EVERY instantiation of the
    Unicode classes (printable, whitespace, word characters). *)
From PP Require Import Doc PyStr PyLit Printers Sem StrEscape StrSplit StrTotal StrPieces StrLayout.

(** escape_str_for_quote - repr() followed by the textual str.replace
    re-quoting - is the character-by-character escaping for the wanted quote *)
Theorem C02_escape_direct :
  forall printable bytes q s, q = SQ \/ q = DQ ->
    escape_for_quote printable bytes q s = flat_map (rc printable bytes q) s.
Proof. exact escape_direct. Qed.
Print Assumptions C02_escape_direct.

(** the literal  q + escape_str_for_quote(q, s) + q  denotes exactly s, for
    str (all code points) and bytes (all byte values), either quote *)
Theorem C02_escape_roundtrip :
  forall printable bytes q s, q = SQ \/ q = DQ -> Forall (valid bytes) s ->
    literal_value bytes q (escape_for_quote printable bytes q s) = Some s.
Proof. exact escape_roundtrip. Qed.
Print Assumptions C02_escape_roundtrip.

(** splitting never loses, duplicates or reorders characters and never yields
    an empty piece - for every max_len (also <= 0), quote, pattern *)
Theorem C02_split_join :
  forall printable is_space_u is_word_u fuel bytes max_len q s pat lines,
    str_to_lines printable is_space_u is_word_u fuel bytes max_len q s pat = Some lines ->
    concat lines = s /\ Forall (fun l => l <> []) lines.
Proof. exact str_to_lines_join. Qed.
Print Assumptions C02_split_join.

(** splitting terminates for every positive max_len, however small, within
    the fuel the model gives it (6 len + 16 iterations) *)
Theorem C02_split_total :
  forall printable is_space_u is_word_u bytes max_len q s pat,
    (0 < max_len)%Z ->
    str_to_lines printable is_space_u is_word_u (big_fuel_of s) bytes max_len q s pat <> None.
Proof. exact str_to_lines_total. Qed.
Print Assumptions C02_split_total.

(** at every indentation, column, page width and ribbon width, for each of the
    four multiline strategies and the subclass wrapper, the document the string
    printer evaluates to is assembled from literal pieces - at least one, none
    empty unless the value is, all with the same quote and prefix - whose
    concatenation is the value *)
Theorem C02_pieces :
  forall printable is_space_u is_word_u is_linebreak p indent column page_width ribbon_width,
  exists lines q,
    (q = SQ \/ q = DQ) /\
    concat lines = sp_s p /\
    lines <> [] /\
    (Forall (fun l => l <> []) lines \/ (lines = [[]] /\ sp_s p = [])) /\
    In (eval_str printable is_space_u is_word_u is_linebreak p indent column page_width ribbon_width)
       (assemble printable is_space_u is_linebreak p q lines).
Proof. exact eval_str_pieces. Qed.
Print Assumptions C02_pieces.

(** End to end at the engine level: wherever the string printer's document is
    laid out - inside any layout of any enclosing document (premise of
    Sem.L_ctxs), at any indentation, column, page width, ribbon, for every
    evaluator of the engine run - the text of that part of the stream, line
    breaks and indentation removed, is exactly the literal pieces
    prefix q escape(l_k) q  in order, possibly inside one pair of parentheses
    or the subclass call  Name( ... ); the l_k are non-empty and concatenate
    to the value, and each literal denotes its l_k (C02_escape_roundtrip). *)
Theorem C02_layout_text :
  forall printable sp isw lb (evs : strp -> Z -> Z -> Z -> Z -> doc) w rw p indent column page_width ribbon_width,
  exists lines q,
    (q = SQ \/ q = DQ) /\ concat lines = sp_s p /\ lines <> [] /\
    (Forall (fun l => l <> []) lines \/ (lines = [[]] /\ sp_s p = [])) /\
    let lits := concat (map (literal_text printable (sp_bytes p) q) lines) in
    forall m i c o c',
      Lay evs w rw m i c (eval_str printable sp isw lb p indent column page_width ribbon_width) o c' ->
      otext o = wrapT p lits \/ otext o = lits \/ otext o = [40%N] ++ lits ++ [41%N].
Proof. exact str_layout_text. Qed.
Print Assumptions C02_layout_text.

(** the general fact behind it: a document whose choices all carry the same
    text on both sides has that text in every one of its layouts *)
Theorem C02_text_of_every_layout :
  forall (evs : strp -> Z -> Z -> Z -> Z -> doc) w rw m i c d o c',
    Lay evs w rw m i c d o c' -> agree d -> otext o = dtext d.
Proof. exact lay_text. Qed.
Print Assumptions C02_text_of_every_layout.

(** Non-vacuity / the repaired defect: an empty string with no width left is
    one piece (before fix 20c117b the evaluator returned an empty document). *)
Example C02_empty_string_no_width :
  eval_str (fun _ => true) (fun _ => false) (fun _ => true) (fun _ => false)
           (mkStrp [] false MHang 4 None false) 0 0 1 1
  = single_line_str (fun _ => true) false SQ [].
Proof. vm_compute. reflexivity. Qed.

Example C02_split_example :
  str_to_lines (fun _ => true) (fun c => N.eqb c 32) (fun c => negb (N.eqb c 32)) 100 false 5 39%N
               [97; 98; 32; 99; 100; 101; 32; 102]%N None
  = Some [[97; 98; 32]; [99; 100; 101; 32]; [102]]%N.
Proof. vm_compute. reflexivity. Qed.
