(** C16 - coloured output is the plain output plus well-nested styling.
    Statements only; proofs in Proofs/ColorProofs.v. *)
From Coq Require Import String.
From PP Require Import Doc Render Color ColorProofs Tokens Colorful.

(** Removing the styling chunks from what the coloured renderer writes gives
    exactly the plain rendering - for EVERY sdoc stream (any annotations, any
    nesting, balanced or not), any style and any colour strings. *)
Theorem C16_strip :
  forall (is_space : N -> bool) (sgr : N -> str) (reset : str) (out : list sdoc),
    unstyled (color_render is_space sgr reset out) = default_render is_space out.
Proof. exact strip_is_plain. Qed.
Print Assumptions C16_strip.

(** Every text fragment (line breaks included) is written while the terminal
    is in the style of the innermost syntax-token annotation enclosing it - the
    enclosing token's style being restored when an inner one ends, non-token
    annotations having no effect - and the stream ends in the reset state.
    [decode] interprets the written chunks (each styling string is absolute);
    [innermost] is the bracket structure of the stream, independent of the
    renderer. *)
Theorem C16_innermost :
  forall (is_space : N -> bool) (sgr : N -> str) (reset : str) (out : list sdoc),
    decode reset (color_render is_space sgr reset out) None
    = (map (fun st => (fst st, style_of sgr reset (snd st)))
           (innermost (stripped is_space (as_lines out)) []), None).
Proof. exact innermost_style. Qed.
Print Assumptions C16_innermost.

(** Every syntax token the printers can emit has a style mapping (finite,
    regenerated from syntax.py / color.py / every printer module on each run). *)
Definition mem_str (s : string) (l : list string) : bool := existsb (String.eqb s) l.
Theorem C16_table_total : forallb (fun t => mem_str t table_tokens) emitted_tokens = true.
Proof. vm_compute. reflexivity. Qed.
Theorem C16_table_tokens_exist : forallb (fun t => mem_str t (map fst token_values)) table_tokens = true.
Proof. vm_compute. reflexivity. Qed.

(** Rendering never fails because of a style's attributes: every modifier
    name styleattrs_to_colorful looks up exists in the installed colorful, and
    for each presence combination of color / bgcolor the accessor is one of
    colorful's forms  fg | fg_on_bg | on_bg  over the palette names it defines. *)
Theorem C16_modifiers_exist : forallb (fun m => mem_str m colorful_modifiers) used_modifiers = true.
Proof. vm_compute. reflexivity. Qed.
Definition valid_accessor (c b : bool) (a : string) : bool :=
  match c, b with
  | true, true => String.eqb a "prettyprinterCurrFg_on_prettyprinterCurrBg"
  | true, false => String.eqb a "prettyprinterCurrFg"
  | false, true => String.eqb a "on_prettyprinterCurrBg"
  | false, false => false
  end.
Theorem C16_accessors_valid :
  forallb (fun x => valid_accessor (fst (fst x)) (snd (fst x)) (snd x)) accessors = true /\ length accessors = 3%nat.
Proof. vm_compute. split; reflexivity. Qed.

(** Non-vacuity: a token inside a token inside a non-token annotation. *)
Example C16_example :
  written (color_render (fun c => N.eqb c 32) (fun t => [27; t]%N) [27; 48]%N
    [SPush (ATok 6); SText [97]%N; SPush (AOther 1); SPush (ATok 8); SText [98]%N; SPop (ATok 8); SPop (AOther 1);
     SText [99; 32]%N; SPop (ATok 6)])
  = [27; 6; 97; 27; 8; 98; 27; 6; 99; 27; 48]%N.
Proof. vm_compute. reflexivity. Qed.
