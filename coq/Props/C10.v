(** C10 - max_seq_len shows exactly the first N elements and says how many
    were dropped.  Statements only. *)
From Coq Require Import Lia.
From PP Require Import Doc PyVal Printers Pformat PyExpr PyEval PrettyToks3 EvalRT.

(** With max_seq_len = n >= 1 the printed expression evaluates to exactly the
    value with EVERY list, tuple, set, frozenset and dict - at every nesting
    level, native or subclass - cut to its first min(len, n) elements in
    iteration order ([norm]: take_z n at every container), whatever the layout
    (C01_denotes: every layout denotes this expression). *)
Theorem C10_truncated :
  forall (env : str -> option target),
    env n_float = None -> env n_frozenset = None -> env n_set = None ->
    forall (n : Z) (sort : bool), (1 <= n)%Z ->
    forall (v : pyval) (tr : bool), evaluable env v ->
      eval env (expr_of (mkE None n sort) v tr) = Some (norm n sort v).
Proof. exact eval_expr_of. Qed.
Print Assumptions C10_truncated.

(** End to end at the engine level (Proofs/EndToEnd.v, StrBridge.v): the stream
    the model of the layout engine emits under max_seq_len = n glues to the
    tokens of an expression evaluating to the value with every container cut
    to its first n elements - for every evaluable value, strings included, at
    every width, ribbon and indent. *)
From PP Require Import Sem StrBridge EndToEnd.
Theorem C10_engine_output_truncated :
  forall (printable sp wd lb : N -> bool) (fuel ff : nat) (env : str -> option target),
    env n_float = None -> env n_frozenset = None -> env n_set = None ->
    forall (v : pyval) (indent width rw : Z) (n : Z) (sort : bool) (out : list sdoc),
    (1 <= n)%Z -> wf_val v -> evaluable env v ->
    sdocs_model printable sp wd lb fuel ff v indent width rw None n sort = Some out ->
    exists e, Glue printable (rtoks (strip out) NNormal) (etoks e) /\ eval env e = Some (norm n sort v).
Proof. exact engine_output_evaluates. Qed.
Print Assumptions C10_engine_output_truncated.

(** The notice: a sequence longer than max_seq_len is printed as its first
    max_seq_len element documents followed by ONE comment document with the
    text "...and K more elements", K = len - max_seq_len (joined with the
    user's trailing comment if there is one); a sequence that is not longer
    gets no such comment. *)
Theorem C10_notice_seq :
  forall (sp lb : N -> bool) (ctx : pctx) (kind len : nat) (tr : option str) (els : unit -> list doc),
    depth_is0 ctx = false -> (2 <= len)%nat ->
    seq_d sp lb ctx kind len None tr els =
    let '(lft, rgt) := match kind with
                       | 0%nat => (LBRACKET, RBRACKET) | 1%nat => (LPAREN, RPAREN) | _ => (LBRACE, RBRACE) end in
    if (c_maxlen ctx <? Z.of_nat len)%Z then
      sequence_of_docs sp lb ctx lft
        (take_z (c_maxlen ctx) (els tt) ++
         [commentdoc sp lb (join_comments (trunc_comment (Z.of_nat len - c_maxlen ctx)) tr)]) rgt false true
    else
      match tr with
      | Some t => sequence_of_docs sp lb ctx lft (take_z (c_maxlen ctx) (els tt) ++ [commentdoc sp lb t]) rgt false true
      | None => sequence_of_docs sp lb ctx lft (take_z (c_maxlen ctx) (els tt)) rgt false false
      end.
Proof.
  intros sp lb ctx kind len tr els H0 Hlen. unfold seq_d. rewrite H0.
  destruct len as [|[|len]]; [lia|lia|]. cbn [is_some negb].
  destruct kind as [|[|k]]; cbn [Nat.eqb andb];
    destruct (c_maxlen ctx <? Z.of_nat (S (S len)))%Z; try reflexivity; destruct tr; reflexivity.
Qed.
Print Assumptions C10_notice_seq.

(** the text of the notice *)
Theorem C10_notice_text : forall k : Z,
  trunc_comment k = ([46; 46; 46; 97; 110; 100; 32] ++ repr_int k ++
                     [32; 109; 111; 114; 101; 32; 101; 108; 101; 109; 101; 110; 116; 115])%N.
Proof. reflexivity. Qed.

Example C10_example :
  eval (fun _ => None) (expr_of (mkE None 2 false) (VList [VInt 1; VTuple [VInt 2; VInt 3; VInt 4]; VInt 5]) false)
  = Some (VList [VInt 1; VTuple [VInt 2; VInt 3]]) /\
  trunc_comment 12 = [46; 46; 46; 97; 110; 100; 32; 49; 50; 32; 109; 111; 114; 101; 32; 101; 108; 101; 109; 101; 110; 116; 115]%N.
Proof. split; vm_compute; reflexivity. Qed.

(** max_seq_len=None (the model's sys.maxsize) or any limit at least as large
    as every container: the printed DOCUMENT - hence the text at every width -
    is the same, and it contains no truncation notice (C10_notice_seq). *)
From PP Require Import DocStable.
Theorem C10_none :
  forall (printable sp wd lb : N -> bool) (fuel ff : nat) (v : pyval) (indent width rw m1 m2 : Z)
         (depth : option Z) (sort : bool),
    match depth with None => True | Some d => (Z.of_nat (hgt v) < d)%Z end ->
    NormFits.fits m1 v -> NormFits.fits m2 v ->
    pformat_model printable sp wd lb fuel ff v indent width rw depth m1 sort
    = pformat_model printable sp wd lb fuel ff v indent width rw depth m2 sort.
Proof.
  intros. unfold pformat_model, sdocs_model, top_doc.
  rewrite (pretty_pv_maxlen sp lb m2 v (mkCtx indent depth MPlain m1 sort)); [reflexivity|now apply Z.min_case].
Qed.
Print Assumptions C10_none.
