(** C17 - call-style printers show exactly the constructor call.  Statements only. *)
From Coq Require Import String.
From PP Require Import Doc PyVal Printers PyExpr PyEval ValInd PrettyToks2 PrettyToks3 EvalRT Extras ExtrasModel ExtrasProofs.

(** pretty_call / pretty_call_alt: in EVERY layout the printed document
    denotes the tokens of the call expression ... *)
Theorem C17_denotes :
  forall (sp lb : N -> bool) (f : clsinfo) (args : list pyval) (kwargs : list (str * pyval)) (ctx : pctx) (cm tr : option str),
    wf_val (VCall f args kwargs) ->
    DT (pretty_pv sp lb (VCall f args kwargs) ctx cm tr)
       (etoks (expr_of (ectx_of ctx) (VCall f args kwargs) (trb tr))).
Proof. intros. now apply pretty_pv_DT. Qed.
Print Assumptions C17_denotes.

(** ... which is the callable's qualified name, the positional arguments in
    order and the keyword arguments in the order given, each argument being
    the expression it prints as on its own (one level deeper; the hugged sole
    list / dict / tuple argument at the same level) *)
Theorem C17_call_shape :
  forall (c : ectx) (f : clsinfo) (args : list pyval) (kwargs : list (str * pyval)) (tr : bool),
    e_le0 c = false ->
    (kwargs = [] -> forall a, args = [a] -> huggable a = false) ->
    expr_of c (VCall f args kwargs) tr =
    ECall (cn_name f) (map (fun a => expr_of (e_nested c) a false) args)
          (map (fun kv => (fst kv, expr_of (e_nested c) (snd kv) false)) kwargs).
Proof.
  intros c f args kwargs tr H0 Hh. rewrite expr_call. unfold ecall. rewrite H0.
  replace (hugged args kwargs) with false; [f_equal; apply map_ext; now intros []|].
  unfold hugged. destruct kwargs; [|reflexivity]. destruct args as [|a [|a2 ar]]; try reflexivity.
  symmetry. exact (Hh eq_refl a eq_refl).
Qed.
Print Assumptions C17_call_shape.

(** evaluating the text with the callable in scope performs that call *)
Theorem C17_performs_the_call :
  forall (env : str -> option target),
    env n_float = None -> env n_frozenset = None -> env n_set = None ->
    forall (n : Z) (sort : bool), (1 <= n)%Z ->
    forall f args kwargs tr, evaluable env (VCall f args kwargs) ->
      eval env (expr_of (mkE None n sort) (VCall f args kwargs) tr)
      = Some (VCall f (map (norm n sort) args) (map (fun kv => (fst kv, norm n sort (snd kv))) kwargs)).
Proof. intros. now apply eval_expr_of. Qed.
Print Assumptions C17_performs_the_call.

(** dataclasses / attrs: the selection functions TRANSLATED from
    extras/dataclasses.py and extras/attrs.py (Gen/Extras.v, regenerated on
    every run) select exactly the fields with repr enabled that have no default
    or whose value differs from it, in declaration order ... *)
Theorem C17_dataclass_fields :
  forall fields, Forall dc_wf fields ->
    kwargs_of dc_shown fields = map (fun f => (f_name f, f_value f)) (filter spec_shown fields).
Proof. intros fields _. apply dataclass_fields. Qed.
Print Assumptions C17_dataclass_fields.

Theorem C17_attrs_fields :
  forall fields, Forall dc_wf fields ->
    kwargs_of attrs_shown fields = map (fun f => (f_name f, f_value f)) (filter spec_shown fields).
Proof. intros fields _. apply attrs_fields. Qed.
Print Assumptions C17_attrs_fields.

(** ... and the generated __init__ applied to those keywords rebuilds every
    field (fields hidden from the print holding their default) *)
Theorem C17_reconstructs :
  forall fields,
    NoDup (map f_name fields) -> Forall dc_wf fields -> Forall honest fields -> Forall hidden_ok fields ->
    forall f, In f fields -> init_value (kwargs_of spec_shown fields) f = Some (f_value f).
Proof. exact reconstructs. Qed.
Print Assumptions C17_reconstructs.

(** the keyword arguments reach pretty_call_alt without passing through
    pretty_call's own (ctx, fn) parameters: no field name can collide *)
Theorem C17_no_reserved_names : dc_call_form = "alt"%string /\ attrs_call_form = "alt"%string.
Proof. split; reflexivity. Qed.

(** End to end at the engine level (Proofs/StrBridge.v, EndToEnd.v): the stream
    the model of the layout engine emits for a pretty_call object glues to the
    tokens of an expression that evaluates to THAT call - same callable, the
    positional arguments in order, the keyword arguments in order, each
    evaluated (cut to max_seq_len, comments dropped) - at every width, ribbon
    and indent, string arguments included. *)
From PP Require Import Sem Pformat StrBridge EndToEnd.
Theorem C17_engine_output_performs_the_call :
  forall (printable sp wd lb : N -> bool) (fuel ff : nat) (env : str -> option target),
    env n_float = None -> env n_frozenset = None -> env n_set = None ->
    forall (f : clsinfo) (args : list pyval) (kwargs : list (str * pyval)) (indent width rw : Z) (n : Z) (sort : bool)
           (out : list sdoc),
    (1 <= n)%Z -> wf_val (VCall f args kwargs) -> evaluable env (VCall f args kwargs) ->
    sdocs_model printable sp wd lb fuel ff (VCall f args kwargs) indent width rw None n sort = Some out ->
    exists e, Glue printable (rtoks (strip out) NNormal) (etoks e) /\
              eval env e = Some (VCall f (map (norm n sort) args) (map (fun kv => (fst kv, norm n sort (snd kv))) kwargs)).
Proof.
  intros printable sp wd lb fuel ff env E1 E2 E3 f args kwargs.
  exact (engine_output_evaluates printable sp wd lb fuel ff env E1 E2 E3 (VCall f args kwargs)).
Qed.
Print Assumptions C17_engine_output_performs_the_call.
