(** C19 - output depends only on the value and the settings; inputs are never
    modified.  Statements only. *)
From PP Require Import Doc Dispatch DispatchProofs StateIndep Lazy LazyCell Pformat.

(** (1) Printer lookup.  Whatever was printed or queried before - any values,
    in any order, any number of times, including the first prints that promote
    printers registered lazily by name - the printer chosen for an instance i of a class c depends
    only on the registrations made so far: two histories with the same
    registrations choose the same printer. *)
Theorem C19_prints_leave_no_trace :
  forall (mro : cls -> list cls) (accepts : pd -> nat -> bool),
    (forall c, exists tl, mro c = c :: tl) ->
    forall h1 h2 c i,
      forallb cd_query h1 = true -> forallb cd_query h2 = true ->
      filter is_reg_op h1 = filter is_reg_op h2 ->
      last (drun mro accepts dinit (h1 ++ [Print c i])) OUnit = last (drun mro accepts dinit (h2 ++ [Print c i])) OUnit.
Proof. exact prints_leave_no_trace. Qed.
Print Assumptions C19_prints_leave_no_trace.

(** (2) Lazily prepared layout constants.  A FlatChoice built by the public
    constructor (LINE, SOFTLINE and every flat_choice() of the printers: flag
    normalize_on_access = False) is never modified by any sequence of
    .when_broken / .when_flat reads, whatever normalize_doc does; only the
    private copy that FlatChoice.normalize creates for one layout call mutates
    itself.  Proved over the guards translated from doctypes.py. *)
Theorem C19_shared_constants_immutable :
  forall (norm : doc -> doc) (b f : doc) (ops : list fcop),
    fold_left (fc_step norm) ops (fc_new b f) = fc_new b f.
Proof.
  intros norm b f ops. induction ops as [|o tl IH]; [reflexivity|].
  cbn [fold_left]. destruct o; exact IH.
Qed.
Print Assumptions C19_shared_constants_immutable.

Theorem C19_only_normalize_makes_mutable_cells : fc_default_flag = false /\ fc_true_flag_sites = 1%nat.
Proof. split; reflexivity. Qed.

(** (3) The model of the pipeline below the dispatch is a FUNCTION of the value
    and the settings (pformat_model has no state argument): this is what the
    correspondence run compares pformat with under random call histories. *)
Theorem C19_model_is_a_function :
  forall printable sp wd lb fuel ff v indent width rw depth maxlen sort r1 r2,
    pformat_model printable sp wd lb fuel ff v indent width rw depth maxlen sort = r1 ->
    pformat_model printable sp wd lb fuel ff v indent width rw depth maxlen sort = r2 -> r1 = r2.
Proof. congruence. Qed.

(** Non-vacuity: the private copy does mutate itself (so (2) is not vacuous). *)
Example C19_private_copy_mutates :
  read_broken (fun _ => Nil) (mkFC (Text [97]%N) Nil true false false) = mkFC Nil Nil true true false.
Proof. reflexivity. Qed.
