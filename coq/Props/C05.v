(** C05 - a group laid out on one line never overflows the page or the ribbon.
    Statements only; proofs are in Proofs/FirstLine.v and Proofs/FlatFits.v. *)
From PP Require Import Doc Layout Classic FirstLine FlatFits.

(** The classic algebra here: text, concat, nest, group, line / softline (any
    flat_choice whose broken branch is a hardline), hardline, always_break,
    align AND annotate ([Rs]: the machine's stack is the predicate's stack plus
    the annotation pops the machine has scheduled since).

    Soundness of both fitting predicates against the machine itself: whenever a
    predicate (fast or smart, any page width, ribbon, nesting level) answers
    "fits" with budget [cl] for a pending stack, then the text the machine
    really emits from a corresponding stack up to the next line break - whatever
    it decides for the groups still to come, at whatever width it runs - is at
    most [cl] columns. *)
Theorem C05_fits_sound :
  forall evs nf smart w rw mnl maxw cl F,
    fits_loop evs nf smart w rw mnl maxw cl F = Some true ->
    forall fuel ff sm' w' rw' M col o out,
      Rs F M -> classic_stk F ->
      layout_loop evs fuel ff sm' w' rw' (mkL M col o) = Some out ->
      exists new, out = rev o ++ new /\ flw new <= cl.
Proof. exact sim. Qed.
Print Assumptions C05_fits_sound.

(** The property: in every run from a classic document, at every step at which
    the machine lays a group out flat (the predicate answered "fits"), the
    output line carrying that group's text ends within the page width and
    within the ribbon measured from the group's indentation.  [col] is the
    column at which the group starts, [flw new] the width of everything emitted
    from there to the next line break. *)
Theorem C05_flat_fits :
  forall evs ff smart w rw d fuel out,
    classic d = true ->
    best_layout evs fuel ff smart w rw d = Some out ->
    forall k i m x rest col o,
      steps evs ff smart w rw k (init_state d) = Some (mkL ((i, m, Group x) :: rest) col o) ->
      fits evs ff smart w rw (Z.min col i) (avail w rw col i) ((i, MFlat, x) :: rest) = Some true ->
      exists new, out = rev o ++ new /\ col + flw new <= Z.min w (i + rw).
Proof. exact flat_fits. Qed.
Print Assumptions C05_flat_fits.

(** Non-vacuity: at width 7 the inner group of this classic document is decided
    flat at the sixth iteration (it starts at column 2 and its line "  c d" ends in
    column 5). *)
Definition ex_doc : doc :=
  Cat [Text [97;98]%N; Nest 2 (Cat [HardLine; Group (Cat [Text [99]%N; LINE; Text [100]%N])])].

(** an annotated document is classic too *)
Example C05_annotated_is_classic :
  classic (Annot (ATok 13) (Group (Cat [Annot (AOther 1) (Text [99]%N); LINE; Align (Text [100]%N)]))) = true.
Proof. reflexivity. Qed.
Example C05_nonvacuous :
  classic ex_doc = true /\
  exists k i m x rest col o,
    steps (fun _ _ _ _ _ => Nil) 100 true 7 7 k (init_state ex_doc)
      = Some (mkL ((i, m, Group x) :: rest) col o) /\
    fits (fun _ _ _ _ _ => Nil) 100 true 7 7 (Z.min col i) (avail 7 7 col i) ((i, MFlat, x) :: rest)
      = Some true.
Proof.
  split; [reflexivity|].
  exists 5%nat, 2, MBreak, (Cat [Text [99]%N; FCN HardLine (Text [32]%N); Text [100]%N]), [], 2,
         [SLine 2; SText [97;98]%N].
  split; vm_compute; reflexivity.
Qed.

(** The unguarded reading is false of the faithful model (known finding
    C05-hardline-in-flat-group): a group whose flat rendering reaches a hardline
    is laid out flat, and its second line overflows although it has a break
    opportunity. *)
Definition ex_overflow : doc :=
  Group (Cat [Text [97]%N; HardLine; Text (repeat 98%N 9); LINE; Text [99]%N]).
Example C05_unguarded_refuted :
  best_layout (fun _ _ _ _ _ => Nil) 100 100 true 10 10 ex_overflow
  = Some [SText [97]%N; SLine 0; SText (repeat 98%N 9); SText [32]%N; SText [99]%N].
Proof. vm_compute. reflexivity. Qed.
