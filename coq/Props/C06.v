(** C06 - whatever fits on one line is put on one line.
    The proofs are in Proofs/SingleLine.v. *)
From PP Require Import Doc Layout SingleLine.

(** The decision of a group IS the fitting predicate (layout.py:289-300): the
    machine continues in break mode exactly when the predicate, run on the
    group's flat content plus the rest of the pending stack with the available
    width min(width - column, indent + ribbon - column), answers "does not fit". *)
Theorem C06_broken_iff_not_fits :
  forall evs ff smart w rw i m x rest col o st',
    layout_step evs ff smart w rw (mkL ((i, m, Group x) :: rest) col o) = LCont st' ->
    (ls_stk st' = (i, MBreak, x) :: rest <->
     fits evs ff smart w rw (Z.min col i) (avail w rw col i) ((i, MFlat, x) :: rest) = Some false)
    /\ (ls_stk st' = (i, MFlat, x) :: rest <->
     fits evs ff smart w rw (Z.min col i) (avail w rw col i) ((i, MFlat, x) :: rest) = Some true).
Proof.
  intros evs ff smart w rw i m x rest col o st'. unfold layout_step. cbn [ls_stk ls_col ls_out].
  destruct (fits evs ff smart w rw (Z.min col i) (avail w rw col i) ((i, MFlat, x) :: rest))
    as [[|]|]; intros [= <-]; cbn [ls_stk]; split; split; congruence.
Qed.
Print Assumptions C06_broken_iff_not_fits.

(** Completeness of both predicates on single-line runs: if the machine - at
    any width - finishes the run from a stack without a line break, emitting at
    most [cl] columns of text, then the look-ahead over the corresponding stack
    with budget [cl] answers "fits", for every page width, ribbon, nesting
    level and strategy.  (No forced breaks: [plain_stk].) *)
Theorem C06_fits_complete :
  forall evs ff sm w0 rw0 fuel M col o new F smart w rw mnl maxw cl,
    layout_loop evs fuel ff sm w0 rw0 (mkL M col o) = Some (rev o ++ new) ->
    nosl new = true -> tw new <= cl ->
    RS F M -> plain_stk M ->
    exists nf, fits_loop evs nf smart w rw mnl maxw cl F = Some true.
Proof. exact single_line_fits. Qed.
Print Assumptions C06_fits_complete.

(** The property's "in particular": a document without forced breaks whose
    layout at some page/ribbon width is a single line of L = [tw out0] columns is
    laid out as exactly that stream at every page width and ribbon width >= L,
    by either strategy. *)
Theorem C06_single_line_stable :
  forall evs d fuel0 ff0 sm0 w0 rw0 out0,
    plainc d = true ->
    best_layout evs fuel0 ff0 sm0 w0 rw0 d = Some out0 ->
    nosl out0 = true -> tw out0 <= w0 -> tw out0 <= rw0 ->
    forall w rw fuel ff sm out, tw out0 <= w -> tw out0 <= rw ->
      best_layout evs fuel ff sm w rw d = Some out -> out = out0.
Proof. intros evs d fuel0 ff0 sm0 w0 rw0 out0 Hp H0 Hn _ _. exact (single_line_stable evs d fuel0 ff0 sm0 w0 rw0 out0 Hp H0 Hn). Qed.
Print Assumptions C06_single_line_stable.

(** Non-vacuity: a nested, annotated document that is a single line of 9
    columns at width 1000. *)
Definition ex1 : doc :=
  Group (Cat [Text [91]%N; Nest 4 (Cat [SOFTLINE; Annot (ATok 11) (Text [49]%N); Text [44]%N; LINE;
              Group (Cat [Text [50]%N; Text [44]%N; LINE; Text [51]%N])]); SOFTLINE; Text [93]%N]).
Example C06_nonvacuous :
  plainc ex1 = true /\
  exists out0, best_layout (fun _ _ _ _ _ => Nil) 100 100 true 1000 1000 ex1 = Some out0 /\
               nosl out0 = true /\ tw out0 = 9.
Proof. split; [reflexivity|]. eexists. split; [vm_compute; reflexivity|]. split; reflexivity. Qed.
