(** C08 - instances of subclasses of built-in types keep their class.
    Statements only; proofs are in Proofs/. *)
From PP Require Import Doc PyVal Printers PyExpr PyEval PrettyToks2 PrettyToks3 EvalRT.

(** Every layout of the document printed for a subclass instance - whatever
    the width, ribbon, indent, strategy, nesting position - denotes the tokens
    of [expr_of] (general denotation theorem, instance). *)
Theorem C08_denotes :
  forall (is_space_u is_linebreak : N -> bool) (w : clsinfo) (b : pyval) (ctx : pctx) (cm tr : option str),
    wf_val (VSub w b) ->
    DT (pretty_pv is_space_u is_linebreak (VSub w b) ctx cm tr)
       (etoks (expr_of (ectx_of ctx) (VSub w b) (trb tr))).
Proof. intros. now apply pretty_pv_DT. Qed.
Print Assumptions C08_denotes.

(** That expression evaluates, with the class in scope, to an instance of the
    SAME subclass around the (truncated, comment-free) base value - for all
    nine bases, empty values ([cls()]), special floats ([cls('inf')]),
    one-element tuples, frozensets ([cls([...])]), nested anywhere inside other
    values (C01_roundtrip_general covers the nesting). *)
Theorem C08_roundtrip :
  forall (env : str -> option target),
    env n_float = None -> env n_frozenset = None -> env n_set = None ->
    forall (n : Z) (sort : bool), (1 <= n)%Z ->
    forall (w : clsinfo) (b : pyval) (tr : bool), evaluable env (VSub w b) ->
      eval env (expr_of (mkE None n sort) (VSub w b) tr) = Some (VSub w (norm n sort b)).
Proof. intros. now apply eval_expr_of. Qed.
Print Assumptions C08_roundtrip.

(** Non-vacuity *)
Definition c08_cls : clsinfo := mkCls [109; 46; 83]%N 4.
Definition c08_env (s : str) : option target := if str_eqb s [109; 46; 83]%N then Some (TSub c08_cls BStr) else None.
Example C08_example :
  evaluable c08_env (VSub c08_cls (VStr [97; 39]%N)) /\
  eval c08_env (expr_of (mkE None 1000 false) (VSub c08_cls (VStr [97; 39]%N)) false)
  = Some (VSub c08_cls (VStr [97; 39]%N)).
Proof. split; [cbn; auto|vm_compute; reflexivity]. Qed.

(** End to end at the engine level (Proofs/StrBridge.v, EndToEnd.v): the stream
    the model of the layout engine emits for a subclass instance - a str /
    bytes subclass included, however its literal is split - glues to the tokens
    of an expression that evaluates to an instance of the SAME class around the
    (cut, comment-free) base value. *)
From PP Require Import Sem Pformat StrBridge EndToEnd.
Theorem C08_engine_output_evaluates :
  forall (printable sp wd lb : N -> bool) (fuel ff : nat) (env : str -> option target),
    env n_float = None -> env n_frozenset = None -> env n_set = None ->
    forall (w : clsinfo) (b : pyval) (indent width rw : Z) (n : Z) (sort : bool) (out : list sdoc),
    (1 <= n)%Z -> wf_val (VSub w b) -> evaluable env (VSub w b) ->
    sdocs_model printable sp wd lb fuel ff (VSub w b) indent width rw None n sort = Some out ->
    exists e, Glue printable (rtoks (strip out) NNormal) (etoks e) /\ eval env e = Some (VSub w (norm n sort b)).
Proof.
  intros printable sp wd lb fuel ff env E1 E2 E3 w b.
  exact (engine_output_evaluates printable sp wd lb fuel ff env E1 E2 E3 (VSub w b)).
Qed.
Print Assumptions C08_engine_output_evaluates.
