(** C12: the document the string printer evaluates to weighs at most
    80 * len + 100, whatever the indentation, column, page and ribbon.  With
    FuelAll this bounds the layout loops on EVERY document the printers build. *)
From Coq Require Import Lia.
From PP Require Import Doc PyStr Printers StrEscape StrPieces ReorderSum FuelAll.

(** By computation, the weight of a document whose skeleton is spelled out
    becomes a sum over its parts.  At a [Cat] or [Fill] over a list that is not
    spelled out the computation stops at the [fix] inside [wt]: [tsum_fold]
    folds that back into the [tsum] over the list. *)
Ltac wsimp := cbn [wt tok general_identifier COMMA COLON ELLIPSIS LPAREN RPAREN LBRACKET RBRACKET LBRACE RBRACE
                   ASSIGN_OP TWO_SPACES HASH_SPACE LINE SOFTLINE].

Section StrWeight.
Variable printable : N -> bool.
Variable is_space_u : N -> bool.
Variable is_word_u : N -> bool.
Variable is_linebreak : N -> bool.
Variable cb : strp -> nat.

Notation wt := (wt cb).
Notation wtl := (tsum wt).

Lemma flush_len cur : (length (flush_run cur) <= 1)%nat.
Proof. destruct cur; cbn; lia. Qed.

Lemma split_escapes_aux_len : forall fuel s cur,
  (length (split_escapes_aux fuel s cur) <= 2 * fuel + 1)%nat.
Proof.
  induction fuel as [|f IH]; intros s cur; cbn [split_escapes_aux]; [pose proof (flush_len cur); lia|].
  destruct s as [|c tl]; [pose proof (flush_len cur); lia|].
  destruct (c =? 92)%N; [|specialize (IH tl (c :: cur)); lia].
  destruct (esc_len tl) as [|n]; [specialize (IH tl (c :: cur)); lia|].
  rewrite app_length. cbn [length]. pose proof (flush_len cur).
  specialize (IH (skipn (S n) (c :: tl)) []). lia.
Qed.

Lemma wtl_toks (l : list (bool * str)) :
  wtl (map (fun p : bool * str => tok (if fst p then T_STRING_ESCAPE else T_LITERAL_STRING) (snd p)) l)
  = (3 * length l)%nat.
Proof. induction l as [|x tl IH]; [reflexivity|]. cbn [map length]. rewrite tsum_cons, IH. cbn. lia. Qed.

Lemma rc_len bytes q c : (length (rc printable bytes q c) <= 10)%nat.
Proof.
  destruct (rc_cases printable bytes q c) as [_|_ _|e _|e k He _ _]; cbn [length]; rewrite ?hex_length; try lia.
  destruct He as [He|[He|[He|[]]]]; injection He as _ <-; lia.
Qed.

Lemma flat_map_rc_bound bytes q s : (length (flat_map (rc printable bytes q) s) <= 10 * length s)%nat.
Proof.
  induction s as [|c tl IH]; [cbn; lia|]. cbn [flat_map length]. rewrite app_length.
  pose proof (rc_len bytes q c). lia.
Qed.

Lemma esc_doc_wt e : (wt (esc_doc e) <= 10 + 6 * length e)%nat.
Proof.
  destruct e as [|x xs]; [cbn; lia|]. cbn [esc_doc]. rewrite wt_cat, wtl_toks. unfold split_escapes.
  pose proof (split_escapes_aux_len (S (length (x :: xs))) (x :: xs) []). lia.
Qed.

Lemma single_wt bytes q s : q = SQ \/ q = DQ ->
  (wt (single_line_str printable bytes q s) <= 19 + 60 * length s)%nat.
Proof.
  intros Hq. rewrite single_line_str_eq, escape_direct by exact Hq.
  pose proof (flat_map_rc_bound bytes q s). pose proof (esc_doc_wt (flat_map (rc printable bytes q) s)).
  destruct bytes; wsimp; lia.
Qed.

Lemma wtl_singles bytes q lines : q = SQ \/ q = DQ ->
  (wtl (map (single_line_str printable bytes q) lines) <= 19 * length lines + 60 * length (concat lines))%nat.
Proof.
  intros Hq. induction lines as [|l tl IH]; [cbn; lia|].
  cbn [map length concat]. rewrite tsum_cons, app_length. pose proof (single_wt bytes q l Hq). lia.
Qed.

Lemma wtl_intersperse l : (wtl (intersperse HardLine l) <= wtl l + length l)%nat.
Proof.
  apply intersperse_ind; [cbn; lia|cbn; lia|]. intros y l0 r IH. rewrite !tsum_cons. cbn [length wt]. lia.
Qed.

Lemma str_wrap_wt p d : is_commented d = None ->
  (wt (str_wrap is_space_u is_linebreak p d) <= 36 + wt d)%nat.
Proof.
  intros Hc. unfold str_wrap. destruct (sp_wrap p) as [[t name]|]; [|lia].
  rewrite build_fncall_one by exact Hc. wsimp. lia.
Qed.

Lemma str_frame_wt m i parts : (wt (str_frame m i parts) <= 12 + wtl parts)%nat.
Proof. destruct m; cbn [str_frame]; wsimp; rewrite tsum_fold; lia. Qed.

Lemma str_body_wt p q lines : q = SQ \/ q = DQ ->
  (wt (str_body printable p q lines) <= 12 + 20 * length lines + 60 * length (concat lines))%nat.
Proof.
  intros Hq. destruct (str_body_form printable p q lines) as [l|lines].
  - pose proof (single_wt (sp_bytes p) q l Hq). cbn [concat length]. rewrite app_nil_r. lia.
  - pose proof (wtl_singles (sp_bytes p) q lines Hq).
    pose proof (wtl_intersperse (map (single_line_str printable (sp_bytes p) q) lines)) as Hi. rewrite map_length in Hi.
    etransitivity; [apply str_frame_wt|]. lia.
Qed.

(** 80 a character: an escape has up to 10 characters ([rc_len]), the escaped
    text weighs up to 6 a character ([esc_doc_wt]: at most 2 n + 1 tokens of
    weight 3), and there is at most one line, 20 with its break, per character;
    100 covers the frame, the subclass call and the constants of one line. *)
Definition cb_str (p : strp) : nat := (80 * length (sp_s p) + 100)%nat.

Theorem eval_str_weight p indent column page_width ribbon_width :
  (wt (eval_str printable is_space_u is_word_u is_linebreak p indent column page_width ribbon_width) <= cb_str p)%nat.
Proof.
  destruct (eval_str_shape printable is_space_u is_word_u is_linebreak p indent column page_width ribbon_width)
    as (lines & (Hcat & Hn & Hf) & ->).
  pose proof (str_wrap_wt p _ (str_body_uncommented printable p (quote_strategy (sp_s p)) lines)) as Hw.
  pose proof (str_body_wt p _ lines (quote_strategy_cases (sp_s p))) as Hb. rewrite Hcat in Hb.
  assert (Hl : (length lines <= length (sp_s p) + 1)%nat).
  { destruct Hf as [Hf|[-> _]]; [apply concat_ne_length in Hf; rewrite Hcat in Hf; lia|cbn; lia]. }
  unfold cb_str. lia.
Qed.

End StrWeight.
