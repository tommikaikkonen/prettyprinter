(** Evaluating the expression a value prints as gives the value back
    (comments dropped, containers cut to max_seq_len, dict entries in the
    printed order) - for every built-in value, subclass instance, object
    printed through pretty_call and path, at every nesting; with no depth
    limit (an expression cut by depth does not evaluate back) and
    max_seq_len >= 1. *)
From Coq Require Import Lia.
From PP Require Import Tac Doc PyVal Printers PyExpr PyEval ValInd.

Section EvalRT.
Variable env : str -> option target.
Hypothesis env_float : env n_float = None.
Hypothesis env_frozenset : env n_frozenset = None.
Hypothesis env_set : env n_set = None.

(** the classes of the value are the ones in scope *)
Fixpoint evaluable (v : pyval) : Prop :=
  match v with
  | VList l | VTuple l | VSet l | VFrozenset l =>
      (fix all (l : list pyval) : Prop := match l with [] => True | x :: tl => evaluable x /\ all tl end) l
  | VDict kvs _ =>
      (fix all (l : list (pyval * pyval)) : Prop :=
         match l with [] => True | (k, x) :: tl => evaluable k /\ evaluable x /\ all tl end) kvs
  | VSub c b => match bkind_of b with
                | Some k => env (cn_name c) = Some (TSub c k) /\ evaluable b
                | None => False
                end
  | VCommented x _ | VTrailing x _ => evaluable x
  | VCall f args kwargs =>
      env (cn_name f) = Some (TFn f) /\
      (fix all (l : list pyval) : Prop := match l with [] => True | x :: tl => evaluable x /\ all tl end) args /\
      (fix all (l : list (str * pyval)) : Prop :=
         match l with [] => True | (_, x) :: tl => evaluable x /\ all tl end) kwargs
  | VPath c _ => env (cn_name c) = Some (TPath c)
  | VRepr r => False
  | _ => True
  end.

Lemma str_eqb_refl s : str_eqb s s = true.
Proof. induction s as [|c t IH]; cbn; [reflexivity|]. now rewrite N.eqb_refl. Qed.

Lemma mapM_Forall2 {A B} (f : A -> option B) l vs :
  Forall2 (fun x v => f x = Some v) l vs -> mapM f l = Some vs.
Proof. induction 1 as [|x v l vs Hx _ IH]; cbn [mapM]; [reflexivity|]. now rewrite Hx, IH. Qed.

(** the class of a subclass instance is bound to a subclass of its base's type *)
Definition in_scope (sub : option clsinfo) (b : bkind) : Prop :=
  match sub with Some w => env (cn_name w) = Some (TSub w b) | None => True end.

Lemma ev_osub sub v : evaluable (osub sub v) ->
  evaluable v /\ forall b, bkind_of v = Some b -> in_scope sub b.
Proof.
  destruct sub as [w|]; cbn [osub evaluable in_scope]; [|now split].
  destruct (bkind_of v) as [b0|]; [|contradiction]. intros [Hw Hv]. split; [exact Hv|]. intros b E. now inv E.
Qed.

Lemma eval_call0 f w b : env f = Some (TSub w b) -> eval env (ECall f [] []) = Some (VSub w (empty_of b)).
Proof. intros Hf. cbn [eval mapM]. unfold eval_call. now rewrite Hf. Qed.

Lemma eval_call1 f w b lit a a' :
  env f = Some (TSub w b) -> eval env lit = Some a -> construct b a = Some a' ->
  eval env (ECall f [lit] []) = Some (VSub w a').
Proof. intros Hf Hl Hc. cbn [eval mapM]. rewrite Hl. unfold eval_call. now rewrite Hf, Hc. Qed.

Lemma eval_osub sub b lit a :
  eval env lit = Some a -> construct b a = Some a -> in_scope sub b ->
  eval env (match sub with None => lit | Some w => ECall (cn_name w) [lit] [] end) = Some (osub sub a).
Proof. intros Hl Hc Hw. destruct sub as [w|]; [exact (eval_call1 _ w b lit a a Hw Hl Hc)|exact Hl]. Qed.

(** a sequence literal: (x) is no tuple and {} no set *)
Lemma eval_ESeq k l tc vs :
  match k, l with KTuple, [_] => tc = true | KSet, [] => False | _, _ => True end ->
  mapM (eval env) l = Some vs -> eval env (ESeq k l tc) = Some (vseq k vs).
Proof.
  intros H HM. cbn [eval]. rewrite HM.
  destruct k, l as [|x [|y l']]; try reflexivity; [now rewrite H|contradiction].
Qed.

Variable n : Z.
Variable sort : bool.
Hypothesis n_pos : 1 <= n.
(* with [e_depth = None] every depth test in [expr_of] and in [estr], [ecall], [eseq], [edict] computes: [c_not0] *)
Notation c := (mkE None n sort).
Notation nrm := (norm n sort).

Definition bk (k : seqkind) : bkind := match k with KList => BList | KTuple => BTuple | KSet => BSet end.

Lemma take_z_nonempty {A} (x : A) tl : take_z n (x :: tl) = x :: take_z (n - 1) tl.
Proof. cbn [take_z]. destruct (n <=? 0) eqn:E; [lia|reflexivity]. Qed.

Lemma shown_take {A} (l : list A) : match length l with 1%nat => l | _ => take_z n l end = take_z n l.
Proof. destruct l as [|x [|y l]]; try reflexivity. now rewrite take_z_nonempty. Qed.

Lemma eval_lit k els vs tr :
  Forall2 (fun e v => eval env e = Some v) els vs -> els <> [] ->
  let shown := take_z n els in
  let tc := match shown with
            | [] => false
            | _ => ((n <? Z.of_nat (length els)) || tr) || (match k with KTuple => Nat.eqb (length els) 1 | _ => false end)
            end in
  eval env (ESeq k shown tc) = Some (vseq k (take_z n vs)).
Proof.
  intros HF Hne. apply eval_ESeq; [|now apply mapM_Forall2, Forall2_take_z].
  destruct els as [|e els]; [congruence|]. rewrite take_z_nonempty. destruct k; try exact I.
  (* a one-element tuple literal must carry its comma *)
  destruct els as [|e1 els]; [apply orb_true_r|]. cbn [take_z]. destruct (n - 1 <=? 0) eqn:E; [|exact I].
  rewrite (proj2 (Z.ltb_lt n _)) by (cbn [length]; lia). reflexivity.
Qed.

Lemma c_not0 : e_is0 c = false /\ e_le0 c = false /\ e_nested c = c.
Proof. repeat split. Qed.

Lemma eval_eseq sub k els vs tr :
  in_scope sub (bk k) -> Forall2 (fun e v => eval env e = Some v) els vs ->
  eval env (eseq c k (length els) sub tr els) = Some (osub sub (vseq k (take_z n vs))).
Proof.
  intros Hw HF. unfold eseq. rewrite shown_take. destruct HF as [|e v els vs He HF].
  - (* [] and () are literals, set() and cls() calls *)
    destruct sub as [w|]; [destruct k; exact (eval_call0 _ w _ Hw)|].
    destruct k; try reflexivity. cbn [length andb negb ecall e_le0 e_depth eval mapM kind_name]. unfold eval_call. now rewrite env_set.
  - pose proof (eval_lit k (e :: els) (v :: vs) tr (Forall2_cons _ _ He HF) ltac:(discriminate)) as Hlit.
    destruct sub as [w|]; [|exact Hlit]. apply (eval_call1 _ w (bk k) _ _ _ Hw Hlit). destruct k; reflexivity.
Qed.

Definition pairf (kv : expr * expr) : option (pyval * pyval) :=
  let '(k, x) := kv in match eval env k, eval env x with Some a, Some b => Some (a, b) | _, _ => None end.

Lemma eval_EDict l kvs : Forall2 (fun p kv => pairf p = Some kv) l kvs -> eval env (EDict l) = Some (VDict kvs []).
Proof. intros H. exact (f_equal (option_map (fun p => VDict p [])) (mapM_Forall2 pairf l kvs H)). Qed.

Lemma eval_edict sub so pairs kvs tr :
  in_scope sub BDict -> Forall2 (fun p kv => pairf p = Some kv) pairs kvs ->
  eval env (edict c sub so pairs tr)
  = Some (osub sub (VDict (take_z n (if sort then reorder kvs so else kvs)) [])).
Proof.
  intros Hw HF. unfold edict. cbn [e_is0 e_depth e_sort e_maxlen].
  assert (HD : eval env (EDict (take_z n (if sort then reorder pairs so else pairs)))
               = Some (VDict (take_z n (if sort then reorder kvs so else kvs)) [])).
  { apply eval_EDict, Forall2_take_z. destruct sort; [now apply Forall2_reorder|exact HF]. }
  destruct sub as [w|]; [|exact HD].
  pose proof (eval_call1 _ w BDict _ _ _ Hw HD eq_refl) as HC.
  destruct (take_z n (if sort then reorder pairs so else pairs)); [|exact HC]. destruct (_ || _); [exact HC|].
  (* an empty dict that is not cut prints as cls() *)
  inv HD. exact (eval_call0 _ w BDict Hw).
Qed.

Lemma eval_especial sub f :
  in_scope sub BFloat -> eval env (especial c (special_name f) sub) = Some (osub sub (vspecial f)).
Proof.
  intros Hw. assert (Hf : special_float (special_name f) = Some (vspecial f)) by now destruct f.
  destruct sub as [w|]; [exact (eval_call1 _ w BFloat (EStr false _) _ _ Hw eq_refl Hf)|].
  cbn [especial ecall estr e_is0 e_le0 e_nested e_depth option_map eval mapM]. unfold eval_call.
  now rewrite env_float, str_eqb_refl.
Qed.

Definition RT (v : pyval) : Prop :=
  forall tr, evaluable v -> eval env (expr_of c v tr) = Some (nrm v).

Lemma RT_elems l : Forall RT l -> Forall evaluable l ->
  Forall2 (fun e v => eval env e = Some v) (map (fun x => expr_of c x false) l) (map nrm l).
Proof.
  intros IH Hev. apply Forall2_map. revert IH Hev. apply Forall_impl2. intros x Hx Ex. exact (Hx false Ex).
Qed.

Lemma RT_seq sub k l tr : in_scope sub (bk k) -> Forall RT l -> Forall evaluable l ->
  eval env (eseq c k (length l) sub tr (eelems c l)) = Some (osub sub (vseq k (take_z n (map nrm l)))).
Proof.
  intros Hw IH Hev. rewrite <- (map_length (fun x => expr_of (e_nested c) x false) l).
  now apply eval_eseq, RT_elems.
Qed.

Lemma eval_efrozen sub l : in_scope sub BFrozenset -> Forall RT l -> Forall evaluable l ->
  eval env (efrozen c l sub) = Some (osub sub (VFrozenset (take_z n (map nrm l)))).
Proof.
  intros Hw IH Hev. pose proof (RT_seq None KList l false I IH Hev) as HL.
  destruct sub as [w|], l as [|x tl].
  - exact (eval_call0 _ w BFrozenset Hw).
  - exact (eval_call1 _ w BFrozenset _ _ _ Hw HL eq_refl).
  - cbn [efrozen ecall e_le0 e_depth eval mapM]. unfold eval_call. now rewrite env_frozenset.
  - cbn [efrozen ecall e_le0 e_depth eval mapM]. rewrite HL. unfold eval_call. now rewrite env_frozenset.
Qed.

(** with no depth to count down, a key prints as any other value *)
Lemma key_eval k : RT k -> evaluable k -> eval env (key_expr_ c k) = Some (nrm k).
Proof. intros IH Hev. rewrite key_expr_eq. destruct (str_key k); exact (IH false Hev). Qed.

Lemma RT_pairs kvs : Forall (fun kv => RT (fst kv) /\ RT (snd kv)) kvs ->
  Forall (fun kv => evaluable (fst kv) /\ evaluable (snd kv)) kvs ->
  Forall2 (fun p kv => pairf p = Some kv) (epairs c kvs) (map (fun kv => (nrm (fst kv), nrm (snd kv))) kvs).
Proof.
  intros IH Hev. apply Forall2_map. revert IH Hev. apply Forall_impl2.
  intros [k x] [Hk Hx] [Ek Ex]. cbn [pairf fst snd] in *. change (e_nested c) with c.
  now rewrite (key_eval k Hk Ek), (Hx false Ex).
Qed.

Lemma norm_osub sub v : nrm (osub sub v) = osub sub (nrm v).
Proof. now destruct sub. Qed.

Theorem eval_expr_of v tr : evaluable v -> eval env (expr_of c v tr) = Some (nrm v).
Proof.
  revert tr. change (RT v).
  induction v as [sub z|sub r|sub f|sub bytes s|sub k l IH|sub l IH|sub kvs so IH|b| | |w v Hv|x cm IH|x cm IH|f args kw IHa IHk|w s|r]
    using pyval_ind'; intros tr Hev.
  1-7: apply ev_osub in Hev as [Hev Hw]; rewrite norm_osub.
  - rewrite expr_int. now apply (eval_osub sub BInt), Hw.
  - rewrite expr_float. now apply (eval_osub sub BFloat), Hw.
  - rewrite expr_special. destruct f; now apply eval_especial, Hw.
  - rewrite expr_str. destruct bytes; [now apply (eval_osub sub BBytes), Hw|now apply (eval_osub sub BStr), Hw].
  - rewrite expr_seq. destruct k; (apply RT_seq; [exact (Hw _ eq_refl)|exact IH|now apply (all_Forall evaluable)]).
  - rewrite expr_frozen. apply eval_efrozen; [exact (Hw _ eq_refl)|exact IH|now apply (all_Forall evaluable)].
  - rewrite expr_dict. apply eval_edict; [exact (Hw _ eq_refl)|].
    apply RT_pairs; [exact IH|now apply (allkv_Forall evaluable evaluable)].
  - now destruct b.
  - reflexivity.
  - reflexivity.
  - cbn [evaluable] in Hev. now rewrite Hv in Hev.
  - exact (IH _ Hev).
  - exact (IH _ Hev).
  - destruct Hev as (Hf & Ha & Hk). apply (all_Forall evaluable) in Ha. apply (allkw_Forall evaluable) in Hk.
    (* with no depth to count down, a hugged argument prints as any other *)
    rewrite expr_call. replace (if hugged args kw then c else e_nested c) with c by now destruct (hugged args kw).
    cbn [ecall e_le0 e_depth eval norm]. rewrite (mapM_Forall2 _ _ _ (RT_elems args IHa Ha)).
    rewrite (mapM_Forall2 _ _ (map (fun kv => (fst kv, nrm (snd kv))) kw)).
    + unfold eval_call. now rewrite Hf.
    + apply Forall2_map. revert IHk Hk. apply Forall_impl2.
      intros [k x] Hx Ex. cbn [fst snd] in *. now rewrite (Hx false Ex).
  - cbn [evaluable] in Hev. rewrite expr_path. cbn [estr e_is0 e_depth eval mapM]. unfold eval_call. now rewrite Hev.
  - contradiction.
Qed.

End EvalRT.
