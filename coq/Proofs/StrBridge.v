(** The bridge between the layout semantics and the token projection for ALL
    documents the printers build, string documents included: every layout of a
    document with projection [ts] carries, as an SDoc stream, raw tokens that
    glue to [ts] - where a string value is glued from its literal pieces
    (prefix, quote, escaped text, quote; C02), optionally inside one pair of
    parentheses. *)

From PP Require Import Tac Doc PyStr Printers PyExpr Sem SemLemmas StrPieces AnnotProofs StrLayout IndentE2E LayToks.

(** raw tokens of an SDoc stream: the text under a syntax-token annotation
    (whatever is nested inside it) is one token of that class; everything
    under COMMENT_SINGLE is skipped; blank text and line breaks are skipped;
    other text is opaque *)
Inductive rtok := RTok (t : N) (s : str) | RText (s : str).
Inductive rmode := NNormal | NTok (t : N) (acc : str) (depth : nat) | NCom (depth : nat).

Fixpoint rtoks (l : list sdoc) (m : rmode) : list rtok :=
  match l with
  | [] => []
  | x :: tl =>
      match m, x with
      | NNormal, SText s => if ws_only s then rtoks tl NNormal else RText s :: rtoks tl NNormal
      | NNormal, SLine _ => rtoks tl NNormal
      | NNormal, SPush (ATok t) => if (t =? 14)%N then rtoks tl (NCom 0) else rtoks tl (NTok t [] 0)
      | NNormal, SPush _ => rtoks tl NNormal
      | NNormal, SPop _ => rtoks tl NNormal
      | NTok t acc d, SText s => rtoks tl (NTok t (acc ++ s) d)
      | NTok t acc d, SPush _ => rtoks tl (NTok t acc (S d))
      | NTok t acc d, SPop _ => match d with O => RTok t acc :: rtoks tl NNormal | S d' => rtoks tl (NTok t acc d') end
      | NTok t acc d, SLine _ => rtoks tl (NTok t acc d)
      | NCom d, SPush _ => rtoks tl (NCom (S d))
      | NCom d, SPop _ => match d with O => rtoks tl NNormal | S d' => rtoks tl (NCom d') end
      | NCom d, _ => rtoks tl (NCom d)
      end
  end.

Lemma wn_com o : WN o -> forall k rest, rtoks (o ++ rest) (NCom k) = rtoks rest (NCom k).
Proof.
  induction 1; intros k rest; try reflexivity.
  - rewrite <- app_assoc. now rewrite IHWN1, IHWN2.
  - cbn [app rtoks]. rewrite <- app_assoc. rewrite IHWN. reflexivity.
Qed.

Lemma wn_tok o : WN o -> forall t acc k rest,
  rtoks (o ++ rest) (NTok t acc k) = rtoks rest (NTok t (acc ++ otext o) k).
Proof.
  induction 1; intros t acc k rest; try (cbn; now rewrite app_nil_r).
  - rewrite <- app_assoc. rewrite IHWN1, IHWN2, otext_app, app_assoc. reflexivity.
  - rewrite otext_wrap. cbn [app rtoks]. rewrite <- app_assoc. rewrite IHWN. reflexivity.
Qed.

(** [LayToks.Tok] for the second reader *)
Definition Tok2 (o : list sdoc) (ts : list rtok) : Prop :=
  forall rest, rtoks (o ++ rest) NNormal = ts ++ rtoks rest NNormal.

Lemma tok2_whole o ts : Tok2 o ts -> rtoks o NNormal = ts.
Proof. intros H. specialize (H []). now rewrite !app_nil_r in H. Qed.

Lemma tok2_nil : Tok2 [] [].
Proof. intros rest. reflexivity. Qed.
Lemma tok2_line i : Tok2 [SLine i] [].
Proof. intros rest. reflexivity. Qed.
Lemma tok2_ws s : ws_only s = true -> Tok2 (txt s) [].
Proof. intros E rest. destruct s; [reflexivity|]. cbn [txt app rtoks]. now rewrite E. Qed.
Lemma tok2_text s : ws_only s = false -> Tok2 (txt s) [RText s].
Proof. intros E rest. destruct s; [discriminate|]. cbn [txt app rtoks]. now rewrite E. Qed.
Lemma tok2_app a b ta tb : Tok2 a ta -> Tok2 b tb -> Tok2 (a ++ b) (ta ++ tb).
Proof. intros Ha Hb rest. rewrite <- app_assoc, (Ha (b ++ rest)), (Hb rest). apply app_assoc. Qed.
Lemma tok2_comment o : WN o -> Tok2 (SPush (ATok 14) :: o ++ [SPop (ATok 14)]) [].
Proof. intros H rest. cbn [app rtoks N.eqb Pos.eqb]. now rewrite <- app_assoc, wn_com. Qed.
Lemma tok2_tok t o : t <> 14%N -> WN o -> Tok2 (SPush (ATok t) :: o ++ [SPop (ATok t)]) [RTok t (otext o)].
Proof.
  intros Ht H rest. cbn [app rtoks]. apply N.eqb_neq in Ht. rewrite Ht.
  now rewrite <- app_assoc, wn_tok.
Qed.
Lemma tok2_acomment c o ts : Tok2 o ts -> Tok2 (SPush (AComment c) :: o ++ [SPop (AComment c)]) ts.
Proof. intros H rest. cbn [app rtoks]. now rewrite <- app_assoc, H. Qed.

(** the raw-token projection of a document without contextual parts; a
    syntax-token annotation may wrap any document all of whose layouts have
    the same text *)
Inductive DTs : doc -> list rtok -> Prop :=
| S_nil : DTs Nil []
| S_hard : DTs HardLine []
| S_ws s : ws_only s = true -> DTs (Text s) []
| S_text s : ws_only s = false -> DTs (Text s) [RText s]
| S_cat l ts : DTLs l ts -> DTs (Cat l) ts
| S_fill l ts : DTLs l ts -> DTs (Fill l) ts
| S_nest i d ts : DTs d ts -> DTs (Nest i d) ts
| S_group d ts : DTs d ts -> DTs (Group d) ts
| S_ab d ts : DTs d ts -> DTs (AlwaysBreak d) ts
| S_fc b f ts : DTs b ts -> DTs f ts -> DTs (FlatChoice b f) ts
| S_comment d : DTs (Annot (ATok 14) d) []
| S_tok t d : t <> 14%N -> agree d -> DTs (Annot (ATok t) d) [RTok t (dtext d)]
| S_acomment c d ts : DTs d ts -> DTs (Annot (AComment c) d) ts
with DTLs : list doc -> list rtok -> Prop :=
| SL_nil : DTLs [] []
| SL_cons d l a b : DTs d a -> DTLs l b -> DTLs (d :: l) (a ++ b).

Lemma DTLs_one d a : DTs d a -> DTLs [d] a.
Proof. intros H. rewrite <- (app_nil_r a). apply SL_cons; [exact H|constructor]. Qed.
Lemma DTs_unab d ts : DTs d ts -> DTs (unab d) ts.
Proof. revert ts. induction d; intros ts H; cbn [unab]; auto. inv H. auto. Qed.
Lemma DTs_tok t s : t <> 14%N -> DTs (tok t s) [RTok t s].
Proof. intros H. exact (S_tok t (Text s) H I). Qed.

Section Bridge.
Variable evs : strp -> Z -> Z -> Z -> Z -> doc.
Variables w rw : Z.
Hypothesis evs_nopop : forall p i c, nopop (evs p i c w rw) = true.

Theorem lay_rtoks :
  forall m i c d o c', Lay evs w rw m i c d o c' -> nopop d = true -> forall ts, DTs d ts -> Tok2 o ts.
Proof.
  intros m i c d o c' H Hn ts HD. revert ts HD Hn.
  induction H using Lay_mut with
    (P0 := fun m i c l o c' => forall ts, DTLs l ts -> forallb nopop l = true -> Tok2 o ts)
    (P1 := fun i c l o c' => forall ts, DTLs l ts -> forallb nopop l = true -> Tok2 o ts);
    [assumption|..]; intros ts HD Hn; inv HD; cbn [nopop forallb] in Hn; rewrite ?nopop_list in Hn;
    try apply andb_prop in Hn as [Hn1 Hn2];
    auto using tok2_nil, tok2_line, tok2_ws, tok2_text, tok2_app, tok2_acomment.
  - (* a comment: skipped *) apply tok2_comment. eapply lay_wellnested; eassumption.
  - (* a syntax token: the text below it *)
    rewrite <- (lay_text _ _ _ _ _ _ _ _ _ H); [|assumption]. apply tok2_tok; [assumption|].
    eapply lay_wellnested; eassumption.
  - (* an item of a fill *) apply tok2_app; auto using DTs_unab, nopop_unab.
Qed.

End Bridge.

Section Pieces.
Variable printable : N -> bool.

(** the raw tokens of one literal piece: the prefix (bytes only), then the
    quoted, escaped text as ONE literal-string token *)
Definition piece_rt (bytes : bool) (q : N) (l : str) : list rtok :=
  (if bytes then [RTok T_STRING_AFFIX [98%N]] else []) ++
  [RTok T_LITERAL_STRING ([q] ++ escape_for_quote printable bytes q l ++ [q])].

Lemma single_DTs bytes q l : DTs (single_line_str printable bytes q l) (piece_rt bytes q l).
Proof.
  rewrite single_line_str_eq. apply S_cat, SL_cons.
  - destruct bytes; [apply DTs_tok; discriminate|now apply S_ws].
  - (* [S_tok] gives the text of the document under the annotation; it is the text stated *)
    eapply DTLs_one, eq_ind; [apply S_tok; [discriminate|]|].
    + cbn [agree]. auto using esc_doc_agree.
    + cbn [dtext]. now rewrite esc_doc_text, app_nil_r.
Qed.

Lemma DTLs_intersperse l ts : DTLs l ts -> DTLs (intersperse HardLine l) ts.
Proof.
  revert ts. apply (intersperse_ind HardLine (fun l r => forall ts, DTLs l ts -> DTLs r ts)); auto.
  intros y l0 r IH ts H. inv H. apply SL_cons; [assumption|]. apply (SL_cons HardLine r [] b); [constructor|auto].
Qed.

Lemma parts_DTs bytes q lines :
  DTLs (intersperse HardLine (map (single_line_str printable bytes q) lines)) (flat_map (piece_rt bytes q) lines).
Proof.
  apply DTLs_intersperse. induction lines as [|l tl IH]; [constructor|]. apply SL_cons; [apply single_DTs|exact IH].
Qed.

End Pieces.

Section Glue.
Variable printable : N -> bool.
Variable sp isw lb : N -> bool.

Notation pieces := (piece_rt printable).

(** a string VALUE is glued from the literal pieces of a non-empty split of
    it, all with one quote and prefix, bare or inside one pair of parentheses
    (which change nothing in an expression); every other raw token stands for
    itself *)
Inductive Glue : list rtok -> list token -> Prop :=
| G_nil : Glue [] []
| G_tok t s r r' : Glue r r' -> Glue (RTok t s :: r) (tok_of t s :: r')
| G_text s r r' : Glue r r' -> Glue (RText s :: r) (TRepr s :: r')
| G_str bytes q lines r r' : (q = SQ \/ q = DQ) -> lines <> [] -> Glue r r' ->
    Glue (flat_map (pieces bytes q) lines ++ r) (TStr bytes (concat lines) :: r')
| G_pstr bytes q lines r r' : (q = SQ \/ q = DQ) -> lines <> [] -> Glue r r' ->
    Glue (RTok T_PUNCTUATION [40%N] :: flat_map (pieces bytes q) lines ++ RTok T_PUNCTUATION [41%N] :: r)
         (TStr bytes (concat lines) :: r').

Lemma glue_app a ta b tb : Glue a ta -> Glue b tb -> Glue (a ++ b) (ta ++ tb).
Proof.
  induction 1; intros Hb; cbn [app].
  - exact Hb.
  - apply G_tok. auto.
  - apply G_text. auto.
  - rewrite <- app_assoc. apply G_str; auto.
  - rewrite <- app_assoc. apply G_pstr; auto.
Qed.

Lemma str_wrap_DTs p d X : wrap_ok p -> is_commented d = None -> DTs d X ->
  Glue X [TStr (sp_bytes p) (sp_s p)] ->
  exists ts', DTs (str_wrap sp lb p d) ts' /\ Glue ts' (strtoks p).
Proof.
  unfold wrap_ok, strtoks, str_wrap. intros Hok Hc Hd HG. destruct (sp_wrap p) as [[t name]|]; [|eauto].
  destruct Hok as [Ht H14]. rewrite build_fncall_one by exact Hc. eexists. split.
  { apply S_group, S_cat.
    apply SL_cons; [apply DTs_tok, H14|].
    apply SL_cons; [apply DTs_tok; discriminate|].
    apply SL_cons.
    { apply S_nest, S_cat. apply SL_cons; [apply S_fc; constructor|].
      apply DTLs_one, S_cat, DTLs_one, S_cat. apply SL_cons; [exact Hd|]. apply DTLs_one. constructor. }
    apply SL_cons; [apply S_fc; constructor|].
    apply DTLs_one, DTs_tok. discriminate. }
  rewrite app_nil_r, <- Ht. apply G_tok, (G_tok T_PUNCTUATION [40%N]).
  apply (glue_app _ _ _ _ HG). apply (G_tok T_PUNCTUATION [41%N]). constructor.
Qed.

Lemma str_frame_DTs m i parts X : DTLs parts X ->
  DTs (str_frame m i parts)
      (match m with MParens => RTok T_PUNCTUATION [40%N] :: X ++ [RTok T_PUNCTUATION [41%N]] | _ => X end).
Proof.
  intros HP.
  assert (HN : DTs (Nest i (Cat (HardLine :: parts))) X).
  { apply S_nest, S_cat, (SL_cons HardLine parts [] X); [constructor|exact HP]. }
  destruct m; cbn [str_frame]; apply S_ab.
  - now apply S_cat.
  - now apply S_nest, S_cat.
  - apply S_cat, (SL_cons _ _ []); [now apply S_ws|]. rewrite <- (app_nil_r X).
    apply SL_cons; [exact HN|]. apply (SL_cons _ _ []); [constructor|]. now apply DTLs_one, S_ws.
  - apply S_cat, (SL_cons _ _ [_]); [apply DTs_tok; discriminate|].
    apply SL_cons; [exact HN|]. apply (SL_cons _ _ []); [constructor|]. apply DTLs_one, DTs_tok. discriminate.
Qed.

Lemma str_body_DTs p q lines : (q = SQ \/ q = DQ) -> lines <> [] ->
  exists X, DTs (str_body printable p q lines) X /\ Glue X [TStr (sp_bytes p) (concat lines)].
Proof.
  intros Hq Hn.
  assert (HX : Glue (flat_map (pieces (sp_bytes p) q) lines) [TStr (sp_bytes p) (concat lines)]).
  { rewrite <- (app_nil_r (flat_map _ _)). apply G_str; auto. constructor. }
  destruct (str_body_form printable p q lines) as [l|lines]; eexists.
  - split; [apply single_DTs|]. cbn [flat_map] in HX. now rewrite app_nil_r in HX.
  - split; [apply str_frame_DTs, parts_DTs|]. destruct (str_strategy p); try exact HX. apply G_pstr; auto; constructor.
Qed.

Theorem eval_str_DTs p indent column page_width ribbon_width : wrap_ok p ->
  exists ts', DTs (eval_str printable sp isw lb p indent column page_width ribbon_width) ts' /\
              Glue ts' (strtoks p).
Proof.
  intros Hok.
  destruct (eval_str_shape printable sp isw lb p indent column page_width ribbon_width) as (lines & (Hcat & Hn & _) & ->).
  destruct (str_body_DTs p (quote_strategy (sp_s p)) lines (quote_strategy_cases _) Hn) as (X & HD & HG).
  rewrite Hcat in HG. exact (str_wrap_DTs p _ X Hok (str_body_uncommented printable p _ lines) HD HG).
Qed.

End Glue.

Section All.
Variable printable : N -> bool.
Variable sp isw lb : N -> bool.
Variables w rw : Z.

Notation evs := (eval_str printable sp isw lb).
Notation GlueP := (Glue printable).

Definition GT (o : list sdoc) (ts : list token) : Prop := exists ts', Tok2 o ts' /\ GlueP ts' ts.

Lemma gt_glue o ts' ts : Tok2 o ts' -> GlueP ts' ts -> GT o ts.
Proof. intros H G. now exists ts'. Qed.
Lemma gt_app a ta b tb : GT a ta -> GT b tb -> GT (a ++ b) (ta ++ tb).
Proof. intros (x & Hx & Gx) (y & Hy & Gy). exists (x ++ y). split; [now apply tok2_app|now apply glue_app]. Qed.
Lemma gt_acomment c o ts : GT o ts -> GT (SPush (AComment c) :: o ++ [SPop (AComment c)]) ts.
Proof. intros (x & Hx & Gx). exists x. auto using tok2_acomment. Qed.

Theorem lay_tokens_all :
  forall m i c d o c', Lay evs w rw m i c d o c' -> nopop d = true -> forall ts, DT d ts -> GT o ts.
Proof.
  pose proof (evs_nopop printable sp isw lb w rw) as He.
  intros m i c d o c' H Hn ts HD. revert ts HD Hn.
  induction H using Lay_mut with
    (P0 := fun m i c l o c' => forall ts, DTL l ts -> forallb nopop l = true -> GT o ts)
    (P1 := fun i c l o c' => forall ts, DTL l ts -> forallb nopop l = true -> GT o ts);
    [assumption|..]; intros ts HD Hn; inv HD; cbn [nopop forallb] in Hn; rewrite ?nopop_list in Hn;
    try apply andb_prop in Hn as [Hn1 Hn2];
    eauto using gt_app, gt_acomment, gt_glue, tok2_nil, tok2_line, tok2_ws, tok2_text, G_nil, G_text.
  - (* a comment: skipped *)
    apply (gt_glue _ []); [|constructor]. apply tok2_comment. eapply lay_wellnested; eassumption.
  - (* a syntax token around a text *)
    apply (gt_glue _ [RTok t s]); [|repeat constructor].
    rewrite <- (lay_text _ _ _ _ _ _ _ _ _ H I : otext o = s). apply tok2_tok; [assumption|].
    eapply lay_wellnested; eassumption.
  - (* the contextual string document *)
    destruct (eval_str_DTs printable sp isw lb p i c w rw) as (ts' & HD & HG); [assumption|].
    apply (gt_glue _ ts'); [|exact HG]. eapply lay_rtoks; [exact He|exact H|apply He|exact HD].
  - (* an item of a fill *) apply gt_app; auto using DT_unab, nopop_unab.
Qed.

End All.
