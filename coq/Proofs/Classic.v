(** The classic algebra of C05: text, concat, nest, group, line, softline
    (any flat_choice whose broken branch is a hardline), hardline, always_break,
    align, annotate.  Closed under normalisation.  On the layout stack the
    annotation pops ([PopD]) appear as entries of their own ([classict]). *)
From PP Require Import Doc Normalize Layout DocInd NormEq Machine.

Definition is_hard (d : doc) : bool := match d with HardLine => true | _ => false end.
Lemma is_hard_eq b : is_hard b = true -> b = HardLine.
Proof. destruct b; try discriminate. reflexivity. Qed.

Fixpoint classic (d : doc) : bool :=
  match d with
  | Nil | Text _ | HardLine => true
  | Cat l => (fix all (l : list doc) : bool :=
                match l with [] => true | x :: tl => classic x && all tl end) l
  | Nest _ x | Group x | AlwaysBreak x | Align x | Annot _ x => classic x
  | FlatChoice b f | FCN b f => is_hard b && classic f
  | Fill _ | CtxS _ | PopD _ => false
  end.

Definition classict (d : doc) : bool := match d with PopD _ => true | _ => classic d end.
Lemma classic_t d : classic d = true -> classict d = true.
Proof. destruct d; cbn; auto. Qed.

Lemma classic_cat l : classic (Cat l) = forallb classic l.
Proof. reflexivity. Qed.

Definition classic_stk (s : list triple) : Prop := Forall (fun t => classict (snd t) = true) s.

Lemma classic_contrib nd : classic nd = true -> forallb classic (fst (contrib nd)) = true.
Proof.
  destruct nd; cbn [contrib fst forallb]; intros H; rewrite ?andb_true_r;
    try exact H; try reflexivity.
Qed.

Lemma classic_normalize : forall d, classic d = true -> classic (normalize_doc d) = true.
Proof.
  (* the three [try]s: not classic; left as it is; nest, group, always_break, annotate, which
     go back around the normalised child with an always_break hoisted or dropped, and
     [classic] looks through all of these *)
  induction d using doc_ind'; intros Hc; try (cbn in Hc; discriminate); try exact Hc;
    try (cbn [normalize_doc]; destruct (normalize_doc d); exact (IHd Hc)).
  - destruct s; reflexivity.
  - rewrite normalize_cat. rewrite classic_cat in Hc.
    pose proof (cat_items_all classic l classic_contrib H Hc) as Hi.
    destruct (cat_items l) as [|x [|y tl]]; [reflexivity| |].
    + apply andb_prop in Hi as [Hx _]. destruct (cat_prop l); exact Hx.
    + rewrite <- classic_cat in Hi. destruct (cat_prop l); exact Hi.
Qed.

Lemma classic_stk_push_all i m l rest :
  classic (Cat l) = true -> classic_stk rest -> classic_stk (push_all i m l rest).
Proof.
  rewrite classic_cat, forallb_forall. intros Hl Hr. apply Forall_push_all; [|exact Hr].
  intros x Hx. apply classic_t. auto.
Qed.

Lemma classic_stk_inv i m d F :
  classic_stk ((i, m, d) :: F) -> classict d = true /\ classic_stk F.
Proof. apply Forall_cons_iff. Qed.

Lemma classic_stk_cons i m d F :
  classic d = true -> classic_stk F -> classic_stk ((i, m, d) :: F).
Proof. constructor; [now apply classic_t|auto]. Qed.

Section Closed.
Variable evs : strp -> Z -> Z -> Z -> Z -> doc.

Lemma classic_fits_step smart w rw mnl maxw cl stk : classic_stk stk ->
  match fits_step evs smart w rw mnl maxw cl stk with
  | FCont _ stk' => classic_stk stk'
  | _ => True
  end.
Proof.
  unfold fits_step. destruct (cl <? 0); [easy|]. destruct stk as [|[[i m] d] rest]; [easy|].
  intros [Hd Hr]%classic_stk_inv.
  destruct d; cbn [classict classic] in Hd; try discriminate; try exact I; try exact Hr;
    try (now apply classic_stk_cons).
  - (* Cat *) now apply classic_stk_push_all.
  - (* FlatChoice *) apply andb_prop in Hd as [->%is_hard_eq Hf]. destruct m; now apply classic_stk_cons.
  - (* FCN *) apply andb_prop in Hd as [->%is_hard_eq Hf]. destruct m; now apply classic_stk_cons.
  - (* HardLine *) now destruct smart, (i >? mnl).
  - (* Align *) apply classic_stk_cons; [|exact Hr]. exact (classic_normalize (Nest _ d) Hd).
Qed.

Lemma classic_step ff smart w rw st : classic_stk (ls_stk st) ->
  match layout_step evs ff smart w rw st with
  | LCont st' => classic_stk (ls_stk st')
  | _ => True
  end.
Proof.
  destruct st as [stk col out]. unfold layout_step. cbn [ls_stk ls_col ls_out].
  destruct stk as [|[[i m] d] rest]; [easy|]. intros [Hd Hr]%classic_stk_inv.
  destruct d; cbn [classict classic] in Hd; try discriminate; cbn [ls_stk]; try exact Hr;
    try (now apply classic_stk_cons).
  - (* Cat *) now apply classic_stk_push_all.
  - (* Group *) destruct (fits _ _ _ _ _ _ _ _) as [[|]|]; cbn [ls_stk]; now try apply classic_stk_cons.
  - (* FlatChoice *) apply andb_prop in Hd as [->%is_hard_eq Hf]. destruct m; now apply classic_stk_cons.
  - (* FCN *) apply andb_prop in Hd as [->%is_hard_eq Hf]. destruct m; now apply classic_stk_cons.
  - (* Annot: the pop goes on the stack *) apply classic_stk_cons; [exact Hd|]. now constructor.
  - (* Align *) apply classic_stk_cons; [|exact Hr]. exact (classic_normalize (Nest _ d) Hd).
Qed.
End Closed.

(** A classic stack holds no contextual document, so neither loop ever
    consults the string printer's evaluator. *)
Section Evaluator.
Variables evs evs' : strp -> Z -> Z -> Z -> Z -> doc.

Lemma fits_step_evs smart w rw mnl maxw cl stk : classic_stk stk ->
  fits_step evs smart w rw mnl maxw cl stk = fits_step evs' smart w rw mnl maxw cl stk.
Proof.
  destruct stk as [|[[i m] d] rest]; [reflexivity|]. intros [Hd _]%classic_stk_inv.
  destruct d; try reflexivity; discriminate.
Qed.

Lemma fits_loop_evs : forall n smart w rw mnl maxw cl stk, classic_stk stk ->
  fits_loop evs n smart w rw mnl maxw cl stk = fits_loop evs' n smart w rw mnl maxw cl stk.
Proof.
  induction n as [|n IH]; intros smart w rw mnl maxw cl stk HC; [reflexivity|].
  cbn [fits_loop]. rewrite <- (fits_step_evs _ _ _ _ _ _ _ HC).
  pose proof (classic_fits_step evs smart w rw mnl maxw cl stk HC) as HC1.
  destruct (fits_step evs smart w rw mnl maxw cl stk); auto.
Qed.

Lemma layout_step_evs ff smart w rw st : classic_stk (ls_stk st) ->
  layout_step evs ff smart w rw st = layout_step evs' ff smart w rw st.
Proof.
  destruct st as [[|[[i m] d] rest] col out]; [reflexivity|].
  intros [Hd Hr]%classic_stk_inv. destruct d; try reflexivity; try discriminate.
  unfold layout_step, fits. cbn [ls_stk ls_col ls_out].
  rewrite fits_loop_evs by now apply classic_stk_cons. reflexivity.
Qed.

Lemma layout_loop_evs : forall n ff smart w rw st, classic_stk (ls_stk st) ->
  layout_loop evs n ff smart w rw st = layout_loop evs' n ff smart w rw st.
Proof.
  induction n as [|n IH]; intros ff smart w rw st HC; [reflexivity|].
  cbn [layout_loop]. rewrite <- (layout_step_evs _ _ _ _ _ HC).
  pose proof (classic_step evs ff smart w rw st HC) as HC1.
  destruct (layout_step evs ff smart w rw st); auto.
Qed.
End Evaluator.
