(** Induction principle for [doc] with [Forall] hypotheses for the nested lists,
    and [dall q d]: every node of [d] passes the test [q], which looks at the
    node only.  Two pointwise facts about [forallb] stand here as well. *)
From PP Require Import Doc Sem.

Section DocInd.
Variable P : doc -> Prop.
Hypothesis HNil : P Nil.
Hypothesis HText : forall s, P (Text s).
Hypothesis HCat : forall l, Forall P l -> P (Cat l).
Hypothesis HNest : forall i d, P d -> P (Nest i d).
Hypothesis HGroup : forall d, P d -> P (Group d).
Hypothesis HAB : forall d, P d -> P (AlwaysBreak d).
Hypothesis HFC : forall b f, P b -> P f -> P (FlatChoice b f).
Hypothesis HFCN : forall b f, P b -> P f -> P (FCN b f).
Hypothesis HFill : forall l, Forall P l -> P (Fill l).
Hypothesis HAnnot : forall a d, P d -> P (Annot a d).
Hypothesis HHard : P HardLine.
Hypothesis HAlign : forall d, P d -> P (Align d).
Hypothesis HCtxS : forall p, P (CtxS p).
Hypothesis HPop : forall a, P (PopD a).

Fixpoint doc_ind' (d : doc) : P d :=
  match d with
  | Nil => HNil
  | Text s => HText s
  | Cat l => HCat l ((fix go (l : list doc) : Forall P l :=
                        match l with
                        | [] => Forall_nil P
                        | x :: tl => Forall_cons x (doc_ind' x) (go tl)
                        end) l)
  | Nest i x => HNest i x (doc_ind' x)
  | Group x => HGroup x (doc_ind' x)
  | AlwaysBreak x => HAB x (doc_ind' x)
  | FlatChoice b f => HFC b f (doc_ind' b) (doc_ind' f)
  | FCN b f => HFCN b f (doc_ind' b) (doc_ind' f)
  | Fill l => HFill l ((fix go (l : list doc) : Forall P l :=
                        match l with
                        | [] => Forall_nil P
                        | x :: tl => Forall_cons x (doc_ind' x) (go tl)
                        end) l)
  | Annot a x => HAnnot a x (doc_ind' x)
  | HardLine => HHard
  | Align x => HAlign x (doc_ind' x)
  | CtxS p => HCtxS p
  | PopD a => HPop a
  end.
End DocInd.

Fixpoint dall (q : doc -> bool) (d : doc) : bool :=
  q d &&
  match d with
  | Cat l | Fill l => (fix all (l : list doc) : bool := match l with [] => true | x :: tl => dall q x && all tl end) l
  | Nest _ x | Group x | AlwaysBreak x | Annot _ x | Align x => dall q x
  | FlatChoice b f | FCN b f => dall q b && dall q f
  | _ => true
  end.

Section DAll.
Variable q : doc -> bool.

Lemma dall_cat l : dall q (Cat l) = q (Cat l) && forallb (dall q) l.
Proof. reflexivity. Qed.
Lemma dall_fill l : dall q (Fill l) = q (Fill l) && forallb (dall q) l.
Proof. reflexivity. Qed.

Lemma dall_unab d : dall q d = true -> dall q (unab d) = true.
Proof. induction d; cbn [unab]; auto. cbn [dall]. intros H. apply andb_prop in H as [_ H]. auto. Qed.

Lemma dall_mono (q' : doc -> bool) : (forall d, q d = true -> q' d = true) ->
  forall d, dall q d = true -> dall q' d = true.
Proof.
  intros Hq. induction d using doc_ind'; rewrite ?dall_cat, ?dall_fill; cbn [dall]; intros Hd;
    apply andb_prop in Hd as [H0 Hd]; rewrite (Hq _ H0); cbn [andb]; auto.
  (* left: concat and fill, then the two choices *)
  1,4: rewrite forallb_forall in Hd; rewrite Forall_forall in H; apply forallb_forall; now auto.
  all: apply andb_prop in Hd as [? ?]; apply andb_true_intro; auto.
Qed.
End DAll.

Definition dnode (q r : doc -> bool) (d : doc) : bool :=
  q d &&
  match d with
  | Cat l | Fill l => forallb r l
  | Nest _ x | Group x | AlwaysBreak x | Annot _ x | Align x => r x
  | FlatChoice b f | FCN b f => r b && r f
  | _ => true
  end.

Lemma dall_step q d : dall q d = dnode q (dall q) d.
Proof. destruct d; reflexivity. Qed.

Lemma forallb_map {A B} (q : B -> bool) (f : A -> B) l :
  (forall x, In x l -> q (f x) = true) -> forallb q (map f l) = true.
Proof. intros H. apply forallb_forall. intros y (x & <- & Hx)%in_map_iff. auto. Qed.
Lemma forallb_ext_Forall {A} (f g : A -> bool) l :
  Forall (fun x => f x = g x) l -> forallb f l = forallb g l.
Proof. induction 1 as [|x tl E _ IH]; cbn [forallb]; congruence. Qed.

(** [dall q] is the only function that tests [q] at the node and itself below:
    how a predicate written out as a fixpoint of its own is seen to be an
    instance. *)
Lemma dall_unique q f : (forall d, f d = dnode q f d) -> forall d, f d = dall q d.
Proof.
  intros Hf. induction d using doc_ind'; rewrite Hf, dall_step; unfold dnode;
    try congruence; f_equal; now apply forallb_ext_Forall.
Qed.
