(** The per-type printer helpers denote, in every layout, the tokens of the
    expression the specification [expr_of] prescribes. *)

From PP Require Import Doc PyVal Printers PyExpr DocToks.

Section PrettyToks1.
Variable is_space_u : N -> bool.
Variable is_linebreak : N -> bool.

(** a class / callable is printed as a name *)
Definition wf_cls (c : clsinfo) : Prop := tok_of (cn_tok c) (cn_name c) = TName (cn_name c) /\ cn_tok c <> 14%N.

Lemma DT_ident c : wf_cls c -> DT (general_identifier c) [TName (cn_name c)].
Proof. intros [H1 H2]. rewrite <- H1. now apply DT_tok. Qed.

Lemma wf_cls_of name : wf_cls (cls_of name).
Proof. split; [reflexivity|discriminate]. Qed.

(** the constructor a per-type printer calls: the subclass, or the built-in type *)
Definition wf_sub (sub : option clsinfo) : Prop := match sub with Some w => wf_cls w | None => True end.
Lemma wf_ctor sub base : wf_sub sub -> wf_cls (match sub with Some c => c | None => cls_of base end).
Proof. destruct sub; [auto|intros _; apply wf_cls_of]. Qed.
Lemma ctor_name sub base :
  cn_name (match sub with Some c => c | None => cls_of base end) = match sub with Some w => cn_name w | None => base end.
Proof. now destruct sub. Qed.

Lemma placeholder_DT c : wf_cls c ->
  DT (Cat [general_identifier c; LPAREN; ELLIPSIS; RPAREN]) (etoks (placeholder (cn_name c))).
Proof. intros H%DT_ident. dt. Qed.

Lemma is0_ectx ctx : e_is0 (ectx_of ctx) = depth_is0 ctx.
Proof. reflexivity. Qed.
Lemma le0_ectx ctx : e_le0 (ectx_of ctx) = depth_le0 ctx.
Proof. reflexivity. Qed.

Lemma str_doc_DT ctx bytes s wrapc path :
  wf_sub wrapc ->
  DT (str_doc ctx bytes s wrapc path) (etoks (estr (ectx_of ctx) bytes s wrapc)).
Proof.
  intros Hw. unfold str_doc, estr. rewrite is0_ectx, <- ctor_name. destruct (depth_is0 ctx).
  - now apply placeholder_DT, wf_ctor.
  - destruct wrapc as [w|]; apply DT_str; [exact Hw|exact I].
Qed.

Lemma fncall_DT ctx f argdocs args kwdocs kwargs hug : wf_cls f ->
  Forall2 DT argdocs (map etoks args) ->
  Forall2 DT (map kwarg_doc kwdocs) (map (fun kv => TName (fst kv) :: p_assign :: etoks (snd kv)) kwargs) ->
  DT (build_fncall is_space_u is_linebreak ctx (general_identifier f) argdocs kwdocs hug)
     (etoks (ECall (cn_name f) args kwargs)).
Proof. intros Hf Ha Hk. apply (build_fncall_DT _ _ ctx _ [TName (cn_name f)]); [now apply DT_ident|exact Ha|exact Hk]. Qed.

Lemma call1_DT ctx c lit le hug : wf_cls c -> DT lit (etoks le) ->
  DT (build_fncall is_space_u is_linebreak ctx (general_identifier c) [lit] [] hug) (etoks (ECall (cn_name c) [le] [])).
Proof. intros Hc Hl. apply fncall_DT; [exact Hc|now constructor|constructor]. Qed.

(** pretty_call_alt: the hugged sole argument, or all arguments one level down *)
Lemma call_alt_d_DT ctx f (hug : bool) same nested kws args kwargs : wf_cls f ->
  Forall2 DT (if hug then same tt else nested tt) (map etoks args) ->
  Forall2 DT (map kwarg_doc (if hug then [] else kws tt))
             (map (fun kv => TName (fst kv) :: p_assign :: etoks (snd kv)) kwargs) ->
  DT (call_alt_d is_space_u is_linebreak ctx f hug same nested kws)
     (etoks (ecall (ectx_of ctx) (cn_name f) args kwargs)).
Proof.
  intros Hf Ha Hk. unfold call_alt_d, ecall. rewrite le0_ectx.
  destruct (depth_le0 ctx); [now apply placeholder_DT|]. destruct hug; now apply fncall_DT.
Qed.

Lemma call_noargs_DT ctx f : wf_cls f ->
  DT (call_noargs is_space_u is_linebreak ctx f) (etoks (ecall (ectx_of ctx) (cn_name f) [] [])).
Proof. intros Hf. apply call_alt_d_DT; [exact Hf|constructor..]. Qed.

(** f(...) is the placeholder, whether or not depth is left *)
Lemma ecall_ellipsis c f : ecall c f [EEllipsis] [] = placeholder f.
Proof. unfold ecall. now destruct (e_le0 c). Qed.

Lemma call_ellipsis_DT ctx f : wf_cls f ->
  DT (call_ellipsis is_space_u is_linebreak ctx f) (etoks (placeholder (cn_name f))).
Proof.
  intros Hf. rewrite <- (ecall_ellipsis (ectx_of ctx)). apply call_alt_d_DT; [exact Hf| |constructor].
  constructor; [apply DT_ELLIPSIS|constructor].
Qed.

End PrettyToks1.
