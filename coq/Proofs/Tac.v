Ltac inv H := inversion H; subst; clear H.
