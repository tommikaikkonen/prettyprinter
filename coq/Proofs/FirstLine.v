(** C05: when a fitting predicate answers "fits" for a pending stack, the
    text the layout machine then really puts on the current line (whatever it
    decides for later groups) is no wider than the budget the predicate was
    given.  Classic algebra. *)
From Coq Require Import Lia.
From PP Require Import Doc Normalize Layout Machine Classic.

Section FirstLine.
Variable evs : strp -> Z -> Z -> Z -> Z -> doc.

(** width of the text up to the first line break *)
Fixpoint flw (l : list sdoc) : Z :=
  match l with
  | [] => 0
  | SText s :: tl => slen s + flw tl
  | SLine _ :: _ => 0
  | _ :: tl => flw tl
  end.

Lemma slen_nonneg s : 0 <= slen s.
Proof. unfold slen. lia. Qed.

Lemma flw_nonneg l : 0 <= flw l.
Proof. induction l as [|x tl IH]; cbn [flw]; [lia|]. destruct x; try lia. pose proof (slen_nonneg s). lia. Qed.

Definition mle (m' m : mode) : Prop := m' = m \/ m' = MBreak.

(** The look-ahead evaluates an align at the column [maxw - cl] it has counted
    itself, the machine at its real column: the two documents then differ in
    the offset of one nest ([Rd_nest]); the machine may also have gone to break
    mode where the look-ahead stayed flat ([mle]). *)
Inductive Rd : doc -> doc -> Prop :=
| Rd_eq d : Rd d d
| Rd_nest k1 k2 y : Rd (Nest k1 y) (Nest k2 y).

Lemma norm_nest_Rd k1 k2 x :
  Rd (normalize_doc (Nest k1 x)) (normalize_doc (Nest k2 x)) \/
  exists y, normalize_doc (Nest k1 x) = AlwaysBreak y.
Proof. cbn [normalize_doc]. destruct (normalize_doc x); eauto using Rd. Qed.

Definition Rt (tf tm : triple) : Prop :=
  mle (snd (fst tm)) (snd (fst tf)) /\ Rd (snd tf) (snd tm).

Lemma mle_refl m : mle m m.
Proof. now left. Qed.
Lemma mle_flat m : mle m MFlat.
Proof. destruct m; [now right|now left]. Qed.

(** the machine's stack is the predicate's stack, entry by entry, except that
    the machine has pushed an annotation pop after every annotated document it
    opened since *)
Inductive Rs : list triple -> list triple -> Prop :=
| Rs_nil : Rs [] []
| Rs_cons tf tm F M : Rt tf tm -> Rs F M -> Rs (tf :: F) (tm :: M)
| Rs_pop i m a F M : Rs F M -> Rs F ((i, m, PopD a) :: M).

Lemma Rs_top i i' m m' d F M : mle m' m -> Rs F M -> Rs ((i, m, d) :: F) ((i', m', d) :: M).
Proof. intros Hm HR. constructor; [split; [exact Hm|constructor]|exact HR]. Qed.

Lemma Rs_refl F : Rs F F.
Proof. induction F as [|[[i m] d] tl IH]; [constructor|]. apply Rs_top; [apply mle_refl|exact IH]. Qed.

Lemma hard_done ff smart w rw fuel i m M col o out :
  layout_loop evs fuel ff smart w rw (mkL ((i, m, HardLine) :: M) col o) = Some out ->
  exists new, out = rev o ++ new /\ flw new = 0.
Proof.
  destruct fuel as [|fuel]; [discriminate|]. cbn [layout_loop layout_step ls_stk ls_col ls_out].
  intros E. apply loop_out_prefix in E as [new ->]. cbn [ls_out rev].
  exists (SLine i :: new). rewrite <- app_assoc. split; reflexivity.
Qed.

Lemma emitted x o out cl cl' :
  (exists new, out = rev (x :: o) ++ new /\ flw new <= cl') -> flw [x] + cl' <= cl ->
  exists new, out = rev o ++ new /\ flw new <= cl.
Proof.
  intros (new & -> & Hn) Hx. exists (x :: new). rewrite rev_cons_app. split; [reflexivity|].
  pose proof (flw_nonneg new). destruct x; cbn [flw] in *; lia.
Qed.

Lemma sim : forall nf smart w rw mnl maxw cl F,
  fits_loop evs nf smart w rw mnl maxw cl F = Some true ->
  forall fuel ff sm' w' rw' M col o out,
    Rs F M -> classic_stk F ->
    layout_loop evs fuel ff sm' w' rw' (mkL M col o) = Some out ->
    exists new, out = rev o ++ new /\ flw new <= cl.
Proof.
  (* by induction on the machine's fuel: it takes an iteration whenever the look-ahead does *)
  intros nf smart w rw mnl maxw cl F HF fuel ff sm' w' rw'. revert nf cl F HF.
  induction fuel as [|fuel IH]; intros nf cl F HF M col o out HR HC HL; [discriminate|].
  destruct nf as [|nf]; [discriminate|].
  (* the look-ahead's next stack is classic again *)
  pose proof (classic_fits_step evs smart w rw mnl maxw cl F HC) as HC1.
  assert (Ecl : (cl <? 0) = false).
  { cbn [fits_loop] in HF. unfold fits_step in HF. destruct (cl <? 0); [discriminate|reflexivity]. }
  destruct HR as [|[[i m] d] [[i' m'] d'] F M [Hm Hd] HR|i0 m0 a0 F M HR].
  - (* both stacks empty *)
    injection HL as <-. exists []. rewrite app_nil_r. split; [reflexivity|now apply Z.ltb_ge].
  - cbn [fst snd] in Hm, Hd. apply classic_stk_inv in HC as [Hcd _].
    (* one iteration of each loop, by cases on the document on top (the nest offsets may differ) *)
    destruct Hd as [d|k1 k2 y]; [destruct d as [ |s|l|j x|x|x|b f|b f|l|a x| |x|p|a]|];
      cbn [classict classic] in Hcd; cbn [fits_loop] in HF; unfold fits_step in HF, HC1;
      rewrite Ecl in HF, HC1; cbn [layout_loop layout_step ls_stk ls_col ls_out] in HL; try discriminate.
    + (* Nil *) eapply IH; eauto.
    + (* Text *) eapply emitted; [eapply IH; eauto|cbn [flw]; lia].
    + (* Cat *) eapply IH; eauto. apply push_all_rel; auto using Rs_top.
    + (* Nest *) eapply IH; eauto using Rs_top.
    + (* Group *)
      destruct (fits evs ff sm' w' rw' _ _ _) as [[|]|]; [| |discriminate];
        eapply IH; eauto using Rs_top, mle_flat.
    + (* FlatChoice *) apply andb_prop in Hcd as [->%is_hard_eq _]. destruct m'.
      * apply hard_done in HL as (new & -> & Hn). exists new. split; [reflexivity|lia].
      * destruct Hm as [<-|]; [|discriminate]. eapply IH; eauto using Rs_top, mle_refl.
    + (* FCN *) apply andb_prop in Hcd as [->%is_hard_eq _]. destruct m'.
      * apply hard_done in HL as (new & -> & Hn). exists new. split; [reflexivity|lia].
      * destruct Hm as [<-|]; [|discriminate]. eapply IH; eauto using Rs_top, mle_refl.
    + (* Annot: the machine opens the annotation and schedules its pop *)
      eapply emitted; [eapply IH; [exact HF| |exact HC1|exact HL]|cbn [flw]; lia].
      now apply Rs_top, Rs_pop.
    + (* HardLine *)
      apply loop_out_prefix in HL as [new ->]. cbn [ls_out]. exists (SLine i' :: new).
      rewrite rev_cons_app. split; [reflexivity|now apply Z.ltb_ge].
    + (* Align *)
      destruct (norm_nest_Rd (maxw - cl - i) (col - i') x) as [Hn|[y Hn]].
      * eapply IH; eauto. constructor; [now split|exact HR].
      * (* the predicate fails at the next step *)
        rewrite Hn in HF. destruct nf as [|nf']; [discriminate|]. cbn [fits_loop] in HF.
        unfold fits_step in HF. destruct (cl <? 0); discriminate.
    + (* an annotation pop that was on the stack before the look-ahead started *)
      eapply emitted; [eapply IH; eauto|cbn [flw]; lia].
    + (* the two stacks differ in a nest offset only *) eapply IH; eauto using Rs_top.
  - (* the machine closes an annotation the predicate never saw opened as a stack entry;
       the look-ahead takes no iteration *)
    cbn [layout_loop layout_step ls_stk ls_col ls_out] in HL.
    eapply emitted; [eapply IH; eauto|cbn [flw]; lia].
Qed.

Theorem flat_group_first_line ff smart w rw fuel i m x rest col o out :
  classic_stk ((i, m, Group x) :: rest) ->
  fits evs ff smart w rw (Z.min col i) (avail w rw col i) ((i, MFlat, x) :: rest) = Some true ->
  layout_loop evs fuel ff smart w rw (mkL ((i, m, Group x) :: rest) col o) = Some out ->
  exists new, out = rev o ++ new /\ col + flw new <= Z.min w (i + rw).
Proof.
  intros [Hcx HC']%classic_stk_inv Hfit HL. destruct fuel as [|fuel]; [discriminate|].
  cbn [layout_loop layout_step ls_stk ls_col ls_out] in HL. rewrite Hfit in HL.
  eapply sim in HL as (new & -> & Hn); [|exact Hfit|apply Rs_refl|now apply classic_stk_cons].
  exists new. split; [reflexivity|]. unfold avail in Hn. lia.
Qed.

End FirstLine.
