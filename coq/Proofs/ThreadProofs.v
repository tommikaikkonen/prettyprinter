(** C20: for ANY number of threads and ANY schedule, every thread that finishes
    has printed with the lazily registered printer, and none raises. *)
From PP Require Import Tac Threads.

(** what a thread may assume at each program point; the clause at L1 is the
    idea: a thread that found no deferred entry to promote finds the registry
    written, because the entry disappears only after the registry is written *)
Definition good (sh : shared) (t : thread) : Prop :=
  match t_pc t with
  | L0 => t_out t = None
  | L1 => t_out t = None /\ (t_fn t = false -> s_registry sh = true)
  | L2 => t_out t = None /\ t_fn t = true
  | L3 => t_out t = None /\ s_registry sh = true
  | L4 => t_out t = None /\ s_registry sh = true
  | LDone => t_out t = Some Printed
  end.

Definition Inv (st : shared * list thread) : Prop :=
  (s_deferred (fst st) || s_registry (fst st) = true) /\ Forall (good (fst st)) (snd st).

(** the registry only grows *)
Definition mono (sh sh' : shared) : Prop := s_registry sh = true -> s_registry sh' = true.

Lemma good_mono sh sh' t : mono sh sh' -> good sh t -> good sh' t.
Proof.
  unfold mono, good. intros M. destruct (t_pc t); tauto.
Qed.

Lemma step_new_ok sh t : (s_deferred sh || s_registry sh = true) -> good sh t ->
  let '(sh', t') := step_new sh t in
  (s_deferred sh' || s_registry sh' = true) /\ mono sh sh' /\ good sh' t'.
Proof.
  unfold step_new, good, mono, dispatch. intros HI HG.
  destruct (t_pc t) eqn:E; cbn [t_pc t_fn t_out s_deferred s_registry].
  - split; [exact HI|]. split; [auto|]. split; [reflexivity|].
    intros Hd. rewrite Hd in HI. exact HI.
  - destruct HG as [Ho Hf]. split; [exact HI|]. split; [auto|].
    destruct (t_fn t) eqn:Ef; cbn [t_pc t_fn t_out]; split; auto.
  - destruct HG as [Ho Hf]. split; [now rewrite orb_true_r|]. auto.
  - destruct HG as [Ho Hr]. split; [rewrite Hr; reflexivity|]. auto.
  - destruct HG as [Ho Hr]. split; [exact HI|]. split; [auto|]. now rewrite Hr.
  - split; [exact HI|]. split; [auto|]. rewrite E. exact HG.
Qed.

Lemma Forall_upd (P : thread -> Prop) : forall l i x, Forall P l -> P x -> Forall P (upd l i x).
Proof.
  induction l as [|y tl IH]; intros i x Hl Hx; [constructor|]. inv Hl.
  destruct i; cbn [upd]; constructor; auto.
Qed.

Lemma sched1_inv st i : Inv st -> Inv (sched1 step_new st i).
Proof.
  intros [HI HF]. unfold sched1. destruct (nth_error (snd st) i) as [t|] eqn:En; [|split; auto].
  assert (HG : good (fst st) t) by exact (proj1 (Forall_forall _ _) HF t (nth_error_In _ _ En)).
  pose proof (step_new_ok (fst st) t HI HG) as H. destruct (step_new (fst st) t) as [sh' t'].
  destruct H as (HI' & HM & HG'). split; [exact HI'|].
  apply Forall_upd; [|exact HG']. revert HF. apply Forall_impl. intros x. now apply good_mono.
Qed.

Theorem run_inv : forall sched st, Inv st -> Inv (run step_new sched st).
Proof.
  induction sched as [|i tl IH]; intros st H; [exact H|].
  apply IH. now apply sched1_inv.
Qed.

Lemma init_inv n : Inv (sh0, repeat t0 n).
Proof. split; [reflexivity|]. apply Forall_forall. intros x Hx. apply repeat_spec in Hx. subst. reflexivity. Qed.

Lemma run_good n sched t : In t (snd (run step_new sched (sh0, repeat t0 n))) ->
  good (fst (run step_new sched (sh0, repeat t0 n))) t.
Proof. destruct (run_inv sched _ (init_inv n)) as [_ HF]. apply Forall_forall, HF. Qed.

(** every outcome recorded by any thread, under any schedule, is "printed
    with the registered printer" - never the repr fallback, never KeyError *)
Theorem all_schedules_safe (n : nat) (sched : list nat) :
  forall t, In t (snd (run step_new sched (sh0, repeat t0 n))) ->
    t_out t = None \/ t_out t = Some Printed.
Proof. intros t Ht. apply run_good in Ht. unfold good in Ht. destruct (t_pc t); tauto. Qed.

Theorem finished_threads_printed (n : nat) (sched : list nat) :
  forall t, In t (snd (run step_new sched (sh0, repeat t0 n))) -> t_pc t = LDone -> t_out t = Some Printed.
Proof. intros t Ht Hd. apply run_good in Ht. unfold good in Ht. now rewrite Hd in Ht. Qed.

(** the code before the fix: two threads, schedule 0 1 1 1 1 0 - thread 0 passes
    the membership test, thread 1 pops, registers and prints, thread 0's pop
    raises KeyError; schedule 0 0 1 1 - thread 1 finds the printer in neither
    place and prints the repr *)
Theorem old_code_races :
  (exists sched, In (mkT LDone false (Some KeyErr)) (snd (run step_old sched (sh0, [t0; t0])))) /\
  (exists sched, exists t, In t (snd (run step_old sched (sh0, [t0; t0]))) /\ t_out t = Some ReprFallback).
Proof.
  split.
  - exists [0; 1; 1; 1; 1; 0]%nat. vm_compute. auto.
  - exists [0; 0; 1; 1]%nat. eexists. split; [vm_compute; right; left; reflexivity|reflexivity].
Qed.
