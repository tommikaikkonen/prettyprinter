(** Equations for [normalize_doc] on the list constructors.  The model uses
    local fixpoints with an accumulator; the proofs work with the items each
    child contributes, concatenated, and the disjunction of the hoisting flags. *)
From PP Require Import Doc Normalize.

Definition contrib (nd : doc) : list doc * bool :=
  match nd with
  | Cat l' => (l', false)
  | AlwaysBreak y => ([y], true)
  | Nil => ([], false)
  | _ => ([nd], false)
  end.

Definition cat_items (l : list doc) : list doc :=
  flat_map (fun x => fst (contrib (normalize_doc x))) l.
Definition cat_prop (l : list doc) : bool :=
  existsb (fun x => snd (contrib (normalize_doc x))) l.

Definition cat_finish (items : list doc) (prop : bool) : doc :=
  match items with
  | [] => Nil
  | [x] => if prop then AlwaysBreak x else x
  | _ => if prop then AlwaysBreak (Cat items) else Cat items
  end.

(** The accumulator loops of [normalize_doc] on concat and fill: a [go] that appends to
    [acc] the items [c] gives for each element, and raises [prop] when [c] says so. *)
Lemma acc_loop {A} (c : A -> list doc * bool) (go : list A -> list doc -> bool -> list doc * bool) :
  (forall acc prop, go [] acc prop = (acc, prop)) ->
  (forall x tl acc prop, go (x :: tl) acc prop = go tl (acc ++ fst (c x)) (snd (c x) || prop)) ->
  forall l acc prop, go l acc prop =
    (acc ++ flat_map (fun x => fst (c x)) l, prop || existsb (fun x => snd (c x)) l).
Proof.
  intros H0 HS. induction l as [|x tl IH]; intros acc prop.
  - now rewrite H0, app_nil_r, orb_false_r.
  - rewrite HS, IH. cbn [flat_map existsb]. now rewrite app_assoc, orb_assoc, (orb_comm prop).
Qed.

Lemma normalize_cat l : normalize_doc (Cat l) = cat_finish (cat_items l) (cat_prop l).
Proof.
  cbn [normalize_doc]. rewrite (acc_loop (fun x => contrib (normalize_doc x))); [reflexivity|reflexivity|].
  intros x tl acc prop. destruct (normalize_doc x); cbn [contrib fst snd orb]; rewrite ?app_nil_r; reflexivity.
Qed.

(** What the children's normal forms contribute passes a test [p] that the normal
    forms pass and that goes from a normal form to what it contributes. *)
Lemma cat_items_all (p : doc -> bool) l :
  (forall nd, p nd = true -> forallb p (fst (contrib nd)) = true) ->
  Forall (fun d => p d = true -> p (normalize_doc d) = true) l ->
  forallb p l = true -> forallb p (cat_items l) = true.
Proof.
  intros Hc. induction 1 as [|x tl Hx _ IH]; [reflexivity|]. cbn [forallb cat_items flat_map].
  intros [Hpx Hpt]%andb_prop. rewrite forallb_app, (Hc _ (Hx Hpx)). exact (IH Hpt).
Qed.

Definition fill_contrib (x : doc) : list doc * bool :=
  match x with
  | AlwaysBreak y => (if is_nil y then [] else [y], true)
  | Nil => ([], false)
  | _ => ([x], false)
  end.

Definition fill_items (l : list doc) : list doc := flat_map (fun x => fst (fill_contrib x)) l.
Definition fill_prop (l : list doc) : bool := existsb (fun x => snd (fill_contrib x)) l.

Definition fill_finish (items : list doc) (prop : bool) : doc :=
  match items with
  | [] => Nil
  | _ => if prop then AlwaysBreak (Fill items) else Fill items
  end.

Lemma normalize_fill l : normalize_doc (Fill l) = fill_finish (fill_items l) (fill_prop l).
Proof.
  cbn [normalize_doc]. rewrite (acc_loop fill_contrib); [reflexivity|reflexivity|].
  intros x tl acc prop. destruct x as [| | | | |y| | | | | | | |]; cbn [fill_contrib fst snd orb];
    try destruct (is_nil y); rewrite ?app_nil_r; reflexivity.
Qed.
