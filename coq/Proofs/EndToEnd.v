(** End to end, inside Coq: the SDoc stream that the model of the layout
    engine really emits for a (string-free) value - at any width, ribbon,
    indent, depth, max_seq_len, sort setting - carries exactly the tokens of
    the expression [expr_of] prescribes.  Composition of the engine theorem
    (C04_membership), the bridge (LayToks) and the printers' denotation
    theorem (PrettyToks3). *)
From PP Require Import Doc Sem PyVal Printers Pformat PyExpr LayToks CleanDocs PrettyToks3 IndentE2E.

Theorem engine_output_tokens :
  forall (printable sp wd lb : N -> bool) (fuel ff : nat) (v : pyval) (indent width rw : Z)
         (depth : option Z) (maxlen : Z) (sort : bool) (out : list sdoc),
    nostr v -> wf_val v ->
    sdocs_model printable sp wd lb fuel ff v indent width rw depth maxlen sort = Some out ->
    stoks (strip out) MNormal = etoks (expr_of (mkE depth maxlen sort) v false).
Proof.
  intros printable sp wd lb fuel ff v indent width rw depth maxlen sort out Hn Hw [c' HL]%sdocs_model_lay.
  apply tok_whole. eapply lay_tokens; [exact HL|now apply top_doc_DT|now apply clean_top_doc].
Qed.

(** ... and for EVERY value, strings included: the raw tokens of the stream
    the engine emits glue to the tokens of the expression - a string value
    from the literal pieces of one non-empty split of it (StrBridge). *)
From PP Require Import StrBridge.

Theorem engine_output_glues :
  forall (printable sp wd lb : N -> bool) (fuel ff : nat) (v : pyval) (indent width rw : Z)
         (depth : option Z) (maxlen : Z) (sort : bool) (out : list sdoc),
    wf_val v ->
    sdocs_model printable sp wd lb fuel ff v indent width rw depth maxlen sort = Some out ->
    Glue printable (rtoks (strip out) NNormal) (etoks (expr_of (mkE depth maxlen sort) v false)).
Proof.
  intros printable sp wd lb fuel ff v indent width rw depth maxlen sort out Hw [c' HL]%sdocs_model_lay.
  edestruct lay_tokens_all as (raw & ->%tok2_whole & HG);
    [exact HL|apply top_doc_nopop|now apply top_doc_DT|exact HG].
Qed.

Theorem engine_output_tokens_all :
  forall (printable sp wd lb : N -> bool) (fuel ff : nat) (v : pyval) (indent width rw : Z)
         (depth : option Z) (maxlen : Z) (sort : bool) (out : list sdoc),
    wf_val v ->
    sdocs_model printable sp wd lb fuel ff v indent width rw depth maxlen sort = Some out ->
    exists raw, rtoks (strip out) NNormal = raw /\
                Glue printable raw (etoks (expr_of (mkE depth maxlen sort) v false)).
Proof. intros. eexists. split; [reflexivity|]. eapply engine_output_glues; eassumption. Qed.

(** the whole chain: what the engine emits glues to the tokens of an
    expression that EVALUATES to the value (cut to max_seq_len, dicts in the
    requested order) *)
From PP Require Import PyEval EvalRT.
Theorem engine_output_evaluates :
  forall (printable sp wd lb : N -> bool) (fuel ff : nat) (env : str -> option target),
    env n_float = None -> env n_frozenset = None -> env n_set = None ->
    forall (v : pyval) (indent width rw : Z) (n : Z) (sort : bool) (out : list sdoc),
    (1 <= n)%Z -> wf_val v -> evaluable env v ->
    sdocs_model printable sp wd lb fuel ff v indent width rw None n sort = Some out ->
    exists e, Glue printable (rtoks (strip out) NNormal) (etoks e) /\ eval env e = Some (norm n sort v).
Proof.
  intros printable sp wd lb fuel ff env E1 E2 E3 v indent width rw n sort out Hn Hw He H.
  exists (expr_of (mkE None n sort) v false). split.
  - eapply engine_output_glues; eassumption.
  - now apply eval_expr_of.
Qed.
