(** C02, end to end at the engine level: in EVERY layout of the document the
    string printer evaluates to - at any indentation, column, page width and
    ribbon - the text, line breaks and indentation removed, is exactly
    piece_1 piece_2 ... piece_n  - bare, inside one pair of parentheses, or
    inside  Name( ) -  with  piece_k = prefix q escape(l_k) q,  the l_k
    concatenating to the value and non-empty unless the value is. *)
From Coq Require Import Lia.
From PP Require Import Tac Doc PyStr Printers Sem SemLemmas StrPieces.

Definition stext (x : sdoc) : str := match x with SText s => s | _ => [] end.
Definition otext (o : list sdoc) : str := flat_map stext o.
Lemma otext_app a b : otext (a ++ b) = otext a ++ otext b.
Proof. apply flat_map_app. Qed.
Lemma otext_wrap a o : otext (SPush a :: o ++ [SPop a]) = otext o.
Proof. change (otext (SPush a :: o ++ [SPop a])) with (otext (o ++ [SPop a])). rewrite otext_app. apply app_nil_r. Qed.

(** the text of a document (the flat alternative of a choice) *)
Fixpoint dtext (d : doc) : str :=
  match d with
  | Text s => s
  | Cat l | Fill l => (fix go (l : list doc) : str := match l with [] => [] | x :: tl => dtext x ++ go tl end) l
  | Nest _ x | Group x | AlwaysBreak x | Annot _ x | Align x => dtext x
  | FlatChoice _ f | FCN _ f => dtext f
  | _ => []
  end.
Definition dtexts (l : list doc) : str := flat_map dtext l.
Lemma dtext_list l : (fix go (l : list doc) : str := match l with [] => [] | x :: tl => dtext x ++ go tl end) l = dtexts l.
Proof. reflexivity. Qed.

(** both alternatives of every choice carry the same text; no contextual document *)
Fixpoint agree (d : doc) : Prop :=
  match d with
  | Cat l | Fill l => (fix all (l : list doc) : Prop := match l with [] => True | x :: tl => agree x /\ all tl end) l
  | Nest _ x | Group x | AlwaysBreak x | Annot _ x | Align x => agree x
  | FlatChoice b f | FCN b f => dtext b = dtext f /\ agree b /\ agree f
  | CtxS _ => False
  | _ => True
  end.
Lemma agree_list l : (fix all (l : list doc) : Prop := match l with [] => True | x :: tl => agree x /\ all tl end) l <-> Forall agree l.
Proof. induction l as [|x tl IH]; [split; constructor|]. now rewrite Forall_cons_iff, <- IH. Qed.
Lemma agree_unab d : agree d -> agree (unab d).
Proof. induction d; cbn [unab agree]; auto. Qed.
Lemma dtext_unab d : dtext (unab d) = dtext d.
Proof. induction d; cbn [unab dtext]; auto. Qed.

Section SL.
Variable evs : strp -> Z -> Z -> Z -> Z -> doc.
Variables w rw : Z.

Theorem lay_text :
  forall m i c d o c', Lay evs w rw m i c d o c' -> agree d -> otext o = dtext d.
Proof.
  intros m i c d o c' H.
  induction H using Lay_mut with
    (P0 := fun m i c l o c' => Forall agree l -> otext o = dtexts l)
    (P1 := fun i c l o c' => Forall agree l -> otext o = dtexts l);
    cbn [agree dtext]; rewrite ?dtext_list, ?agree_list; auto.
  - (* text *) destruct s; [reflexivity|]. cbn. now rewrite app_nil_r.
  - (* a choice laid out flat: [dtext] is the text of that alternative *) tauto.
  - (* ... and broken: the alternatives agree *) intros (E & Hb & Hf). rewrite <- E. auto.
  - tauto.
  - intros (E & Hb & Hf). rewrite <- E. auto.
  - (* annotate *) rewrite otext_wrap. exact IHLay.
  - (* a contextual document does not [agree] *) contradiction.
  - (* concat *) intros [Hd Hl]%Forall_cons_iff. rewrite otext_app. unfold dtexts. cbn [flat_map]. f_equal; auto.
  - (* fill *) intros [Hd Hl]%Forall_cons_iff. rewrite otext_app. unfold dtexts. cbn [flat_map]. f_equal; auto.
    rewrite <- dtext_unab. auto using agree_unab.
Qed.

End SL.

Lemma flush_concat cur : concat (map snd (flush_run cur)) = rev cur.
Proof. destruct cur; [reflexivity|]. cbn [flush_run map concat snd]. now rewrite app_nil_r. Qed.

Lemma split_escapes_concat : forall fuel s cur, (length s < fuel)%nat ->
  concat (map snd (split_escapes_aux fuel s cur)) = rev cur ++ s.
Proof.
  induction fuel as [|f IH]; intros s cur Hf; [lia|]. cbn [split_escapes_aux].
  destruct s as [|c tl]; [rewrite flush_concat; now rewrite app_nil_r|]. cbn [length] in Hf.
  assert (Hstep : concat (map snd (split_escapes_aux f tl (c :: cur))) = rev cur ++ c :: tl).
  { rewrite IH by lia. cbn [rev]. now rewrite <- app_assoc. }
  destruct (c =? 92)%N; [|exact Hstep].
  destruct (esc_len tl) as [|n]; [exact Hstep|].
  rewrite map_app, concat_app, flush_concat. cbn [map concat snd].
  rewrite IH by (cbn [skipn]; rewrite skipn_length; lia).
  now rewrite firstn_skipn.
Qed.

Section Pieces.
Variable printable : N -> bool.
Variable sp isw lb : N -> bool.

(** one literal: prefix, quote, escaped text, quote *)
Definition literal_text (bytes : bool) (q : N) (l : str) : str :=
  (if bytes then [98%N] else []) ++ [q] ++ escape_for_quote printable bytes q l ++ [q].

Lemma dtexts_toks (l : list (bool * str)) :
  dtexts (map (fun p : bool * str => tok (if fst p then T_STRING_ESCAPE else T_LITERAL_STRING) (snd p)) l)
  = concat (map snd l).
Proof. unfold dtexts. now rewrite flat_map_concat_map, map_map. Qed.

Lemma esc_doc_text e : dtext (esc_doc e) = e.
Proof.
  destruct e as [|x xs]; [reflexivity|]. cbn [esc_doc dtext].
  rewrite dtext_list, dtexts_toks. unfold split_escapes. now rewrite split_escapes_concat by lia.
Qed.

Lemma esc_doc_agree e : agree (esc_doc e).
Proof. destruct e; [exact I|]. cbn [esc_doc agree]. apply agree_list, Forall_map, Forall_forall. intros x _. exact I. Qed.

Lemma single_text bytes q l : dtext (single_line_str printable bytes q l) = literal_text bytes q l.
Proof.
  rewrite single_line_str_eq. cbn [dtext]. rewrite esc_doc_text, !app_nil_r.
  destruct bytes; reflexivity.
Qed.

Lemma single_agree bytes q l : agree (single_line_str printable bytes q l).
Proof.
  rewrite single_line_str_eq. cbn [agree]. repeat split; [now destruct bytes|apply esc_doc_agree].
Qed.

Lemma dtexts_intersperse l : dtexts (intersperse HardLine l) = dtexts l.
Proof. apply intersperse_ind; [reflexivity|reflexivity|]. intros y l0 r E. unfold dtexts in *. cbn [flat_map dtext app]. now rewrite E. Qed.

Lemma agree_intersperse l : Forall agree l -> Forall agree (intersperse HardLine l).
Proof. apply intersperse_ind; auto. intros y l0 r IH H. inv H. repeat constructor; auto. Qed.

Lemma parts_text bytes q lines :
  dtexts (intersperse HardLine (map (single_line_str printable bytes q) lines)) = concat (map (literal_text bytes q) lines).
Proof.
  rewrite dtexts_intersperse. unfold dtexts. rewrite flat_map_concat_map, map_map. f_equal.
  apply map_ext. apply single_text.
Qed.

Definition wrapT (p : strp) (x : str) : str :=
  match sp_wrap p with None => x | Some (_, name) => name ++ [40%N] ++ x ++ [41%N] end.

Lemma str_wrap_text p d : is_commented d = None -> dtext (str_wrap sp lb p d) = wrapT p (dtext d).
Proof.
  intros Hc. unfold str_wrap, wrapT. destruct (sp_wrap p) as [[t name]|]; [|reflexivity].
  rewrite build_fncall_one by exact Hc. cbn [dtext LPAREN RPAREN SOFTLINE tok].
  now rewrite <- !app_assoc.
Qed.

Lemma str_wrap_agree p d : is_commented d = None -> agree d -> agree (str_wrap sp lb p d).
Proof.
  intros Hc Hd. unfold str_wrap. destruct (sp_wrap p) as [[t name]|]; [|exact Hd].
  rewrite build_fncall_one by exact Hc. cbn [agree LPAREN RPAREN SOFTLINE tok dtext]. tauto.
Qed.

Lemma str_frame_agree m i l : Forall agree l -> agree (str_frame m i l).
Proof. intros H. destruct m; cbn [str_frame agree LPAREN RPAREN tok]; rewrite ?agree_list; repeat split; auto. Qed.

Lemma str_body_agree p q lines : agree (str_body printable p q lines).
Proof.
  destruct (str_body_form printable p q lines); [apply single_agree|].
  apply str_frame_agree, agree_intersperse, Forall_map, Forall_forall. intros x _. apply single_agree.
Qed.

(** the parentheses of the MParens frame are the only text a frame adds *)
Lemma str_frame_text m i l :
  dtext (str_frame m i l) = match m with MParens => [40%N] ++ dtexts l ++ [41%N] | _ => dtexts l end.
Proof.
  destruct m; cbn [str_frame dtext LPAREN RPAREN tok]; rewrite ?dtext_list; unfold dtexts; cbn [flat_map dtext];
    now rewrite ?dtext_list, ?app_nil_r.
Qed.

Lemma str_body_text p q lines :
  let lits := concat (map (literal_text (sp_bytes p) q) lines) in
  dtext (str_body printable p q lines) = lits \/
  sp_wrap p = None /\ dtext (str_body printable p q lines) = [40%N] ++ lits ++ [41%N].
Proof.
  destruct (str_body_form printable p q lines) as [l|lines]; cbv zeta.
  - left. cbn [map concat]. now rewrite app_nil_r, single_text.
  - rewrite str_frame_text, parts_text. unfold str_strategy.
    destruct (sp_wrap p); [now left|]. destruct (sp_strategy p); auto.
Qed.

Theorem eval_str_text p indent column page_width ribbon_width :
  let D := eval_str printable sp isw lb p indent column page_width ribbon_width in
  exists lines q,
    (q = SQ \/ q = DQ) /\
    concat lines = sp_s p /\
    lines <> [] /\
    (Forall (fun l => l <> []) lines \/ (lines = [[]] /\ sp_s p = [])) /\
    agree D /\
    let lits := concat (map (literal_text (sp_bytes p) q) lines) in
    (dtext D = wrapT p lits \/ dtext D = lits \/ dtext D = [40%N] ++ lits ++ [41%N]).
Proof.
  intros D. subst D.
  destruct (eval_str_shape printable sp isw lb p indent column page_width ribbon_width) as (lines & (Hcat & Hn & Hf) & ->).
  exists lines, (quote_strategy (sp_s p)). repeat split; auto using quote_strategy_cases.
  - apply str_wrap_agree; [apply str_body_uncommented|apply str_body_agree].
  - rewrite str_wrap_text by apply str_body_uncommented.
    destruct (str_body_text p (quote_strategy (sp_s p)) lines) as [->|[Hw ->]]; [now left|].
    right; right. unfold wrapT. now rewrite Hw.
Qed.

Corollary str_layout_text (evs : strp -> Z -> Z -> Z -> Z -> doc) w rw p indent column page_width ribbon_width :
  exists lines q,
    (q = SQ \/ q = DQ) /\ concat lines = sp_s p /\ lines <> [] /\
    (Forall (fun l => l <> []) lines \/ (lines = [[]] /\ sp_s p = [])) /\
    let lits := concat (map (literal_text (sp_bytes p) q) lines) in
    forall m i c o c',
      Lay evs w rw m i c (eval_str printable sp isw lb p indent column page_width ribbon_width) o c' ->
      otext o = wrapT p lits \/ otext o = lits \/ otext o = [40%N] ++ lits ++ [41%N].
Proof.
  destruct (eval_str_text p indent column page_width ribbon_width) as (lines & q & Hq & Hc & Hn & Hf & Ha & Ht).
  exists lines, q. repeat split; auto. intros lits m i c o c' HL.
  rewrite (lay_text evs w rw _ _ _ _ _ _ HL Ha). exact Ht.
Qed.

End Pieces.
