(** In the token sequence of an expression no two string VALUES are adjacent:
    Python's implicit concatenation of adjacent literals can therefore only
    merge the pieces of ONE value (StrBridge.Glue groups exactly those). *)

From PP Require Import Doc PyExpr.

Definition is_str (t : token) : bool := match t with TStr _ _ => true | _ => false end.
Fixpoint noadj (ts : list token) : bool :=
  match ts with
  | a :: tl => match tl with b :: _ => negb (is_str a && is_str b) | [] => true end && noadj tl
  | [] => true
  end.

Lemma noadj_cons x l : is_str x = false -> noadj (x :: l) = noadj l.
Proof. intros H. destruct l; [reflexivity|]. cbn [noadj]. now rewrite H. Qed.

Lemma noadj_mid a x b : is_str x = false -> noadj a = true -> noadj b = true -> noadj (a ++ x :: b) = true.
Proof.
  intros Hx Ha Hb. induction a as [|y tl IH]; cbn [app]; [now rewrite noadj_cons|].
  cbn [noadj] in *. apply andb_prop in Ha as [H1 H2]. rewrite (IH H2).
  destruct tl as [|z tl']; cbn [app]; [rewrite Hx, andb_false_r; reflexivity|]. now rewrite H1.
Qed.

Lemma noadj_sepcomma l : Forall (fun ts => noadj ts = true) l -> noadj (sepcomma l) = true.
Proof.
  induction 1 as [|x tl Hx Ht IH]; [reflexivity|]. cbn [sepcomma]. destruct tl as [|y tl']; [exact Hx|].
  apply noadj_mid; auto.
Qed.

(** an opening token, items separated by commas, and what closes them: a bracket, or a comma and a bracket *)
Lemma noadj_wrap a l x b : is_str a = false -> is_str x = false ->
  Forall (fun ts => noadj ts = true) l -> noadj b = true -> noadj (a :: sepcomma l ++ x :: b) = true.
Proof. intros Ha Hx Hl Hb. rewrite noadj_cons by exact Ha. apply noadj_mid; auto using noadj_sepcomma. Qed.

Section Ind.
Variable P : expr -> Prop.
Hypothesis Hint : forall z, P (EInt z).
Hypothesis Hfloat : forall r, P (EFloat r).
Hypothesis Hname : forall s, P (EName s).
Hypothesis Hell : P EEllipsis.
Hypothesis Hstr : forall b s, P (EStr b s).
Hypothesis Hseq : forall k l tc, Forall P l -> P (ESeq k l tc).
Hypothesis Hdict : forall kvs, Forall (fun kv => P (fst kv) /\ P (snd kv)) kvs -> P (EDict kvs).
Hypothesis Hcall : forall f args kw, Forall P args -> Forall (fun kv => P (snd kv)) kw -> P (ECall f args kw).
Hypothesis Hrepr : forall s, P (ERepr s).

Fixpoint expr_ind' (e : expr) : P e.
Proof.
  assert (L : forall l, Forall P l).
  { fix IHl 1. intros [|x tl]; constructor; [apply expr_ind'|apply IHl]. }
  assert (D : forall kvs : list (expr * expr), Forall (fun kv => P (fst kv) /\ P (snd kv)) kvs).
  { fix IHl 1. intros [|[k x] tl]; constructor; [split; apply expr_ind'|apply IHl]. }
  assert (K : forall kw : list (str * expr), Forall (fun kv => P (snd kv)) kw).
  { fix IHl 1. intros [|[k x] tl]; constructor; [apply expr_ind'|apply IHl]. }
  (* [auto] must not close a case with the recursive hypothesis itself *)
  clear expr_ind'. destruct e; auto.
Qed.
End Ind.

Theorem etoks_noadj : forall e, noadj (etoks e) = true.
Proof.
  apply expr_ind'; try reflexivity.
  - (* ESeq *) intros k l tc Hl. cbn [etoks]. destruct tc, k; apply noadj_wrap; try reflexivity; apply Forall_map, Hl.
  - (* EDict *) intros kvs Hk. cbn [etoks]. apply noadj_wrap; try reflexivity. apply Forall_map. revert Hk. apply Forall_impl.
    intros kv [Ha Hb]. now apply noadj_mid.
  - (* ECall *) intros f args kw Ha Hk. cbn [etoks]. rewrite noadj_cons by reflexivity. apply noadj_wrap; try reflexivity.
    apply Forall_app. split; apply Forall_map; [exact Ha|]. revert Hk. apply Forall_impl.
    intros kv H. now rewrite !noadj_cons by reflexivity.
Qed.
