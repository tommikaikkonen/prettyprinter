(** C13 / C14: the stateful traversal (mutable visited set, exception
    containment) refines the pure unfolding of the object graph along the
    ancestors of each position. *)
From Coq Require Import Lia.
From PP Require Import Doc PyVal PyEval Graph.

Definition is_nondoc (n : gnode) : bool := match n with GUser _ _ FNonDoc => true | _ => false end.
Definition no_nondoc (h : heap) : Prop := forall r n, nth_error h r = Some n -> is_nondoc n = false.

Definition children (n : gnode) : list nat :=
  match n with
  | GLeaf _ => []
  | GList l | GTuple l => l
  | GDict kvs => split_pairs kvs
  | GUser _ args _ => args
  end.

(** One printer call, uniformly in the kind of node: some of its children are
    printed ([visits]), the results are assembled ([build]), a failing printer adds
    its warning ([own_warn]).  The three step equations below are the only
    places where [grun], [gspec] and [gwarns] are unfolded. *)
Definition visits (n : gnode) : list nat :=
  match n with GUser _ _ FRaise | GUser _ _ FNonDoc => [] | _ => children n end.

Definition build (h : heap) (info : ginfo) (r : nat) (n : gnode) (vs : list pyval) : pyval :=
  match n with
  | GLeaf v => v
  | GList _ => VList vs
  | GTuple _ => VTuple vs
  | GDict _ => VDict (join_pairs vs) []
  | GUser fn args FNone => mk_call h fn args vs
  | GUser _ _ _ => VRepr (gi_repr info r)
  end.

Definition own_warn (r : nat) (n : gnode) : list (nat * bool) := if failing n then [(r, false)] else [].

Lemma visits_children n x : In x (visits n) -> In x (children n).
Proof. destruct n as [| | | |? ? []]; auto; intros []. Qed.

Lemma remove_first_head r l : remove_first r (r :: l) = l.
Proof. cbn. now rewrite Nat.eqb_refl. Qed.

Section Step.
Variable h : heap.
Variable info : ginfo.

Lemma gspec_step f anc r :
  gspec h info (S f) anc r =
  if existsb (Nat.eqb r) anc then Some (VRepr (gi_marker info r))
  else match nth_error h r with
       | None => Some (VRepr [])
       | Some n => option_map (build h info r n) (mapM (gspec h info f (r :: anc)) (visits n))
       end.
Proof.
  cbn [gspec]. destruct (existsb (Nat.eqb r) anc); [reflexivity|].
  destruct (nth_error h r) as [[| | | |? ? []]|]; reflexivity.
Qed.

Lemma gwarns_step f anc r :
  gwarns h (S f) anc r =
  if existsb (Nat.eqb r) anc then []
  else match nth_error h r with
       | None => []
       | Some n => flat_map (gwarns h f (r :: anc)) (visits n) ++ own_warn r n
       end.
Proof.
  cbn [gwarns]. destruct (existsb (Nat.eqb r) anc); [reflexivity|].
  destruct (nth_error h r) as [[| | | |? ? []]|]; cbn; now rewrite ?app_nil_r.
Qed.

Lemma grun_step f r st :
  grun h info (S f) r st =
  if visited_b r st then (GOk (VRepr (gi_marker info r)), st)
  else match nth_error h r with
       | None => (GOk (VRepr []), st)
       | Some n =>
           match gruns_with (grun h info f) (visits n) (start_visit r st) with
           | (LOk vs, st2) => (if is_nondoc n then GExc else GOk (build h info r n vs),
                               mkG (remove_first r (g_visited st2)) (g_warns st2 ++ own_warn r n))
           | (LExc, st2) => (GOk (VRepr (gi_repr info r)), warn r true (end_visit r st2))
           | (LFuel, st2) => (GFuel, st2)
           end
       end.
Proof.
  cbn [grun]. destruct (visited_b r st); [reflexivity|].
  destruct (nth_error h r) as [[| | | |? ? []]|]; try reflexivity; cbn [visits children is_nondoc build own_warn failing].
  (* a leaf and a printer returning a non-document visit nothing: the run over [] computes *)
  1: { destruct st. cbn. now rewrite Nat.eqb_refl, app_nil_r. }
  5: { cbn. now rewrite app_nil_r. }
  all: destruct (gruns_with _ _ _) as [[] ?]; unfold end_visit; now rewrite ?app_nil_r.
Qed.

(** Both invariants are a match on the result of the run: a proof destructs the
    run once and has one goal per outcome.  [visited_restored] and [grun_refines]
    restate them over an equation [grun .. = (res, st')].

    The visited set is restored on every exit, exceptional or not (running out of
    fuel apart, which unwinds without [end_visit]). *)
Definition Rest1 (f : nat) : Prop :=
  forall r st, match grun h info f r st with (GFuel, _) => True | (_, st') => g_visited st' = g_visited st end.
Definition RestL (f : nat) : Prop :=
  forall l st, match gruns_with (grun h info f) l st with (LFuel, _) => True | (_, st') => g_visited st' = g_visited st end.

Lemma rest_list f : Rest1 f -> RestL f.
Proof.
  intros R1 l. induction l as [|r tl IH]; intros st; cbn [gruns_with]; [reflexivity|].
  specialize (R1 r st). destruct (grun h info f r st) as [[v| |] st1]; [|exact R1|exact I].
  specialize (IH st1). rewrite R1 in IH. now destruct (gruns_with (grun h info f) tl st1) as [[] st2].
Qed.

Lemma rest_step f : Rest1 f -> Rest1 (S f).
Proof.
  intros R1 r st. rewrite grun_step. destruct (visited_b r st); [reflexivity|].
  destruct (nth_error h r) as [n|]; [|reflexivity].
  pose proof (rest_list f R1 (visits n) (start_visit r st)) as Hv. cbn [start_visit g_visited] in Hv.
  destruct (gruns_with (grun h info f) (visits n) (start_visit r st)) as [[] st2]; [destruct (is_nondoc n)| |exact I];
    cbn [warn end_visit g_visited]; rewrite Hv; apply remove_first_head.
Qed.

Lemma grun_rest : forall f, Rest1 f.
Proof. induction f as [|f IH]; [intros r st; exact I|now apply rest_step]. Qed.

Theorem visited_restored f r st res st' :
  grun h info f r st = (res, st') -> res <> GFuel -> g_visited st' = g_visited st.
Proof. intros E Hf. pose proof (grun_rest f r st) as H. rewrite E in H. now destruct res. Qed.

(** refinement, when every printer returns a document *)
Hypothesis Hnd : no_nondoc h.

Definition Good1 (f : nat) : Prop :=
  forall r st,
    match grun h info f r st with
    | (GOk t, st') => gspec h info f (g_visited st) r = Some t /\ g_visited st' = g_visited st /\
                      g_warns st' = g_warns st ++ gwarns h f (g_visited st) r
    | (GExc, _) => False
    | (GFuel, _) => gspec h info f (g_visited st) r = None
    end.

Definition GoodL (f : nat) : Prop :=
  forall l st,
    match gruns_with (grun h info f) l st with
    | (LOk vs, st') => mapM (gspec h info f (g_visited st)) l = Some vs /\ g_visited st' = g_visited st /\
                       g_warns st' = g_warns st ++ flat_map (gwarns h f (g_visited st)) l
    | (LExc, _) => False
    | (LFuel, _) => mapM (gspec h info f (g_visited st)) l = None
    end.

Lemma good_list f : Good1 f -> GoodL f.
Proof.
  intros G1 l. induction l as [|r tl IH]; intros st; cbn [gruns_with mapM flat_map]; [now rewrite app_nil_r|].
  specialize (G1 r st). destruct (grun h info f r st) as [[t| |] st1]; [|exact G1|now rewrite G1].
  destruct G1 as (-> & Hv & Hw). specialize (IH st1). rewrite Hv, Hw in IH.
  destruct (gruns_with (grun h info f) tl st1) as [[vs| |] st2]; [|exact IH|now rewrite IH].
  destruct IH as (-> & -> & ->). now rewrite app_assoc.
Qed.

Lemma good_step f : Good1 f -> Good1 (S f).
Proof.
  intros G1 r st. rewrite grun_step, gspec_step, gwarns_step. unfold visited_b.
  destruct (existsb (Nat.eqb r) (g_visited st)); [now rewrite app_nil_r|].
  destruct (nth_error h r) as [n|] eqn:En; [|now rewrite app_nil_r].
  rewrite (Hnd r n En). pose proof (good_list f G1 (visits n) (start_visit r st)) as H.
  cbn [start_visit g_visited g_warns] in H.
  destruct (gruns_with (grun h info f) (visits n) (start_visit r st)) as [[vs| |] st2]; [|destruct H|now rewrite H].
  destruct H as (-> & Hv & Hw). cbn [g_visited g_warns option_map]. rewrite Hv, Hw, remove_first_head, app_assoc. auto.
Qed.

Lemma grun_good : forall f, Good1 f.
Proof. induction f as [|f IH]; [intros r st; reflexivity|now apply good_step]. Qed.

Theorem grun_refines f r st res st' : grun h info f r st = (res, st') ->
  (res = GFuel /\ gspec h info f (g_visited st) r = None) \/
  exists t, res = GOk t /\ gspec h info f (g_visited st) r = Some t /\
            g_visited st' = g_visited st /\
            g_warns st' = g_warns st ++ gwarns h f (g_visited st) r.
Proof.
  intros E. pose proof (grun_good f r st) as H. rewrite E in H.
  destruct res; [right; eauto|contradiction|now left].
Qed.

End Step.

Lemma mapM_total {A B} (f : A -> option B) l : (forall x, f x <> None) -> mapM f l <> None.
Proof.
  intros H. induction l as [|x tl IH]; cbn [mapM]; [discriminate|].
  destruct (f x) eqn:E; [|now apply H in E]. destruct (mapM f tl); [discriminate|congruence].
Qed.

Lemma existsb_eqb_iff r l : existsb (Nat.eqb r) l = true <-> In r l.
Proof.
  rewrite existsb_exists. split; [intros (x & Hx & E); apply Nat.eqb_eq in E; now subst|].
  intros H. exists r. split; [exact H|apply Nat.eqb_refl].
Qed.

Theorem gspec_total (h : heap) (info : ginfo) : forall fuel anc r,
  NoDup anc -> (forall x, In x anc -> (x < length h)%nat) -> (length h - length anc < fuel)%nat ->
  gspec h info fuel anc r <> None.
Proof.
  induction fuel as [|f IH]; intros anc r Hnd Hb Hf; [lia|].
  rewrite gspec_step. destruct (existsb (Nat.eqb r) anc) eqn:Ev; [discriminate|].
  destruct (nth_error h r) as [n|] eqn:En; [|discriminate].
  assert (Hr : (r < length h)%nat) by (apply nth_error_Some; congruence).
  assert (Hnd' : NoDup (r :: anc)) by (constructor; [rewrite <- existsb_eqb_iff; congruence|exact Hnd]).
  assert (Hb' : forall x, In x (r :: anc) -> (x < length h)%nat) by (intros x [<-|Hx]; auto).
  assert (Hlen : (length (r :: anc) <= length h)%nat).
  { rewrite <- (seq_length (length h) 0). apply NoDup_incl_length; [exact Hnd'|].
    intros x Hx. apply in_seq. specialize (Hb' x Hx). lia. }
  assert (K : mapM (gspec h info f (r :: anc)) (visits n) <> None).
  { apply mapM_total. intros x. apply IH; auto. cbn [length] in *. lia. }
  destruct (mapM _ (visits n)); [discriminate|congruence].
Qed.

Theorem grun_total (h : heap) (info : ginfo) : no_nondoc h -> forall root,
  fst (gprint h info (S (length h)) root) <> GFuel.
Proof.
  intros Hnd root. unfold gprint. pose proof (grun_good h info Hnd (S (length h)) root (mkG [] [])) as H.
  destruct (grun h info (S (length h)) root (mkG [] [])) as [[t| |] st']; [discriminate..|].
  exfalso. revert H. apply gspec_total; [constructor|intros x []|cbn; lia].
Qed.

(** a printer returning a non-document at the top level: ValueError *)
Theorem nondoc_top (h : heap) (info : ginfo) fuel root fn args :
  nth_error h root = Some (GUser fn args FNonDoc) ->
  fst (gprint h info (S fuel) root) = GExc.
Proof. intros H. unfold gprint. now rewrite grun_step, H. Qed.

Lemma nth_patch_from info : forall h i r,
  nth_error (patch_from info i h) r =
  option_map (fun n => if failing n then GLeaf (VRepr (gi_repr info (i + r))) else n) (nth_error h r).
Proof.
  induction h as [|n tl IH]; intros i r; [now destruct r|].
  destruct r; cbn [patch_from nth_error option_map]; [now rewrite Nat.add_0_r|].
  rewrite IH. now rewrite Nat.add_succ_r.
Qed.

Lemma mapM_ext_some {A B} (f g : A -> option B) l vs :
  (forall x t, f x = Some t -> g x = Some t) -> mapM f l = Some vs -> mapM g l = Some vs.
Proof.
  intros H. revert vs. induction l as [|x tl IH]; intros vs E; cbn [mapM] in *; [exact E|].
  destruct (f x) eqn:Ef; [|discriminate]. destruct (mapM f tl) eqn:Et; [|discriminate].
  rewrite (H x _ Ef). now rewrite (IH _ eq_refl).
Qed.

Lemma mk_call_patch info h fn args vs : mk_call (patch info h) fn args vs = mk_call h fn args vs.
Proof.
  unfold mk_call. destruct args as [|a [|]]; auto. destruct vs as [|v [|]]; auto. destruct v; auto.
  unfold is_container_ref, patch. rewrite nth_patch_from. destruct (nth_error h a) as [n|]; cbn [option_map]; auto.
  destruct n as [| | | |? ? []]; reflexivity.
Qed.

(** containment: the value of a print with failing printers is the print
    of the heap in which exactly the failing objects are opaque repr leaves *)
Theorem gspec_patch (h : heap) (info : ginfo) : forall fuel anc r t,
  gspec h info fuel anc r = Some t -> gspec (patch info h) info fuel anc r = Some t.
Proof.
  induction fuel as [|f IH]; intros anc r t H; [discriminate|]. rewrite gspec_step in *.
  destruct (existsb (Nat.eqb r) anc); [exact H|].
  unfold patch at 1. rewrite nth_patch_from. destruct (nth_error h r) as [n|]; [|exact H].
  destruct (mapM _ (visits n)) as [vs|] eqn:E; [|discriminate].
  apply (mapM_ext_some _ _ _ _ (IH (r :: anc))) in E.
  destruct n as [| | | |? ? []]; cbn [option_map failing visits children mapM] in *; rewrite ?E; cbn [option_map build];
    rewrite ?mk_call_patch; auto.
Qed.

Inductive reach (h : heap) : nat -> nat -> Prop :=
| reach_refl r : reach h r r
| reach_step r n x y : nth_error h r = Some n -> In x (children n) -> reach h x y -> reach h r y.

Lemma mapM_ext_in {A B} (f g : A -> option B) l : (forall x, In x l -> f x = g x) -> mapM f l = mapM g l.
Proof.
  induction l as [|x tl IH]; intros H; cbn [mapM]; [reflexivity|].
  rewrite (H x (or_introl eq_refl)). rewrite IH; [reflexivity|]. intros y Hy. apply H. now right.
Qed.

(** shared substructure prints the same wherever it occurs *)
Theorem gspec_sharing (h : heap) (info : ginfo) : forall fuel anc1 anc2 r,
  (forall x, reach h r x -> (In x anc1 <-> In x anc2)) ->
  gspec h info fuel anc1 r = gspec h info fuel anc2 r.
Proof.
  induction fuel as [|f IH]; intros anc1 anc2 r H; [reflexivity|]. rewrite !gspec_step.
  assert (Eb : existsb (Nat.eqb r) anc1 = existsb (Nat.eqb r) anc2).
  { apply eq_true_iff_eq. rewrite !existsb_eqb_iff. apply H, reach_refl. }
  rewrite Eb. destruct (existsb (Nat.eqb r) anc2); [reflexivity|].
  destruct (nth_error h r) as [n|] eqn:En; [|reflexivity].
  f_equal. apply mapM_ext_in. intros x Hx. apply IH. intros y Hy.
  assert (Hry : reach h r y) by (eapply reach_step; eauto using visits_children).
  cbn [In]. specialize (H y Hry). tauto.
Qed.

Corollary gspec_acyclic_occurrence (h : heap) (info : ginfo) fuel anc r :
  (forall x, reach h r x -> ~ In x anc) ->
  gspec h info fuel anc r = gspec h info fuel [] r.
Proof. intros H. apply gspec_sharing. intros x Hx. split; [intros Hi; now apply H in Hi|intros []]. Qed.
