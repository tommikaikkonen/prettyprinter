(** C12: the document the printers build for ANY value - commented, truncated,
    subclassed - weighs at most 1000 times the size of the value (nodes +
    characters of strings and comments), given max_seq_len >= 0 and sort
    orders without duplicates ([sorted_ok]).  With FuelAll/StrWeight: the
    layout of pformat's document ends within (1000 |v| + 1)^2 iterations. *)
From Coq Require Import Lia.
From PP Require Import Doc PyStr PyVal Printers StrTotal FuelAll StrWeight ReorderSum ValInd.
Local Open Scope nat_scope.

Section LD.
Variable sp lb : N -> bool.

Notation W := (wt cb_str).
Notation Wl := (tsum W).

Notation tot := (tsum (fun x : str => S (length x))).

(** at a line break the line read so far is closed; reading goes on behind the
    break, which is two characters long for "\r\n" *)
Lemma splitlines_break cur c tl : lb c = true ->
  exists rest, (rest = tl \/ tl = 10%N :: rest) /\
    splitlines_aux lb cur (c :: tl) = rev cur :: splitlines_aux lb [] rest.
Proof.
  intros H. cbn [splitlines_aux]. rewrite H.
  (* the match that looks for "\r\n", taken apart down to its leaves *)
  repeat (match goal with |- context [match ?x with _ => _ end] => destruct x end); eauto.
Qed.

Lemma splitlines_tot s : forall cur, tot (splitlines_aux lb cur s) <= length cur + length s + 1.
Proof.
  induction s as [s IH] using (induction_ltof1 _ (@length N)). unfold ltof in IH. intros cur.
  destruct s as [|c tl]; [destruct cur; cbn; rewrite ?app_length, ?rev_length; cbn; lia|]. cbn [length] in *.
  destruct (lb c) eqn:E.
  - destruct (splitlines_break cur c tl E) as (rest & Hr & ->). rewrite tsum_cons, rev_length.
    assert (Hl : length rest <= length tl) by (destruct Hr as [->| ->]; cbn [length]; lia).
    pose proof (IH rest ltac:(lia) []). cbn [length] in *. lia.
  - cbn [splitlines_aux]. rewrite E. pose proof (IH tl ltac:(lia) (c :: cur)). cbn [length] in *. lia.
Qed.

Lemma comment_items_wf : forall l b, tsum (fun x => S (W x)) (comment_items l b) <= 7 * length l.
Proof.
  induction l as [|p tl IH]; intros b; [cbn; lia|]. cbn [comment_items length]. rewrite tsum_cons.
  specialize (IH (negb b)). destruct b; wsimp; lia.
Qed.

Lemma filter_len {A} (f : A -> bool) l : length (filter f l) <= length l.
Proof. induction l as [|x tl IH]; cbn; [lia|]. destruct (f x); cbn; lia. Qed.

Lemma comment_line_wt line : W (comment_line sp line) <= 19 + 7 * length line.
Proof.
  unfold comment_line.
  pose proof (re_split_len sp line) as Hr.
  pose proof (filter_len nonempty (re_split sp line)) as Hf.
  set (alt := filter nonempty (re_split sp line)) in *.
  set (starts := match alt with p :: _ => existsb sp (firstn 1 p) | [] => false end).
  set (alt1 := if starts then tl alt else alt).
  assert (H1 : length alt1 <= length alt) by (subst alt1; destruct starts, alt; cbn; lia).
  set (alt2 := if Nat.even (length alt1) then removelast alt1 else alt1).
  assert (H2 : length alt2 <= length alt1) by (subst alt2; destruct (Nat.even _);
        [rewrite removelast_firstn_len; pose proof (firstn_le_length (pred (length alt1)) alt1)|]; lia).
  pose proof (comment_items_wf alt2 false) as Hi.
  destruct starts; [destruct alt|]; wsimp; rewrite tsum_fold; lia.
Qed.

(** 20 a character of a comment: 19 + 7 a line, and 1 for the break after it *)
Lemma comment_lines_wl l : Wl (map (comment_line sp) l) + length l <= 20 * tot l.
Proof.
  rewrite <- (Nat.mul_1_l (length l)). apply tsum_map_le, Forall_forall. intros x _.
  pose proof (comment_line_wt x). lia.
Qed.

Lemma commentdoc_wt t : W (commentdoc sp lb t) <= 24 + 20 * length t.
Proof.
  unfold commentdoc. pose proof (splitlines_tot t []) as Ht. fold (splitlines lb t) in Ht.
  pose proof (comment_lines_wl (splitlines lb t)) as Hl.
  pose proof (wtl_intersperse cb_str (map (comment_line sp) (splitlines lb t))) as Hi.
  rewrite map_length in Hi. cbn [length] in Ht. destruct (Nat.ltb _ _); wsimp; rewrite tsum_fold; lia.
Qed.

(** What a document costs as an element of a sequence, a call or a dict: its
    weight, the comment it carries (printed beside it once more: 20 a character
    and, of the 50, the 24 of [commentdoc_wt]), separators (the other 26). *)
Definition csz (d : doc) : nat := match is_commented d with Some c => length c | None => O end.
Definition cost (d : doc) : nat := W d + 20 * csz d + 50.
Notation costl := (tsum cost).

(** What the per-type printers return carries no comment: [finish] alone adds
    one.  Each printer's lemma says so together with a bound on the weight,
    which the caller names ([bare d n] is upward closed in [n]).  The bounds
    are budgets with slack, in multiples of 20 (the weight of one comment
    character): [lin_finish] gives a printer 20 * 42 beyond its children, and
    the dearest, a sequence or dict, spends at most 20 * 35 of it (brackets,
    the subclass call 80, a truncation notice 74 + 20 * 25). *)
Definition bare (d : doc) (n : nat) : Prop := is_commented d = None /\ W d <= n.

Lemma bare_le d n m : bare d n -> n <= m -> bare d m.
Proof. intros [Hc Hw] H. split; [exact Hc|lia]. Qed.
Lemma bare_cost d n : bare d n -> cost d <= n + 50.
Proof. intros [Hc Hw]. unfold cost, csz. rewrite Hc. lia. Qed.

Lemma tok_bare t s n : 3 <= n -> bare (tok t s) n.
Proof. now split. Qed.
Lemma bare_ab_group (b : bool) x n : S (W x) <= n -> bare (if b then AlwaysBreak x else Group x) n.
Proof. now destruct b. Qed.

Lemma cost_wt d : W d + 50 <= cost d.
Proof. unfold cost. lia. Qed.

Lemma uncomment_wt d : W (uncomment d) <= W d.
Proof. destruct d; cbn [uncomment]; try lia. destruct a; cbn; lia. Qed.

Lemma commented_cost d c : is_commented d = Some c -> W (commentdoc sp lb c) + W d + 26 <= cost d.
Proof. intros H. unfold cost, csz. rewrite H. pose proof (commentdoc_wt c). lia. Qed.

Lemma seq_parts_wl dangle : forall docs, Wl (seq_parts sp lb docs dangle) <= costl docs.
Proof.
  induction docs as [|d tl IH]; [cbn; lia|]. cbn [seq_parts]. rewrite (tsum_cons cost).
  destruct (is_commented d) as [c|] eqn:Ec.
  - pose proof (commented_cost d c Ec). rewrite tsum_cons. destruct (negb _ || dangle), tl; wsimp; lia.
  - pose proof (cost_wt d). destruct tl; [cbn [tsum fold_right]; lia|]. rewrite !(tsum_cons W). wsimp. lia.
Qed.

Lemma sequence_of_docs_bare ctx l docs r dangle fb n :
  costl docs + W l + W r + 20 <= n -> bare (sequence_of_docs sp lb ctx l docs r dangle fb) n.
Proof.
  intros Hn. unfold sequence_of_docs, bracket. apply bare_ab_group. wsimp. rewrite tsum_fold, tsum_app.
  pose proof (seq_parts_wl dangle docs). destruct (dangle && _); cbn [tsum fold_right]; wsimp; lia.
Qed.

Lemma fncall_parts_wl : forall docs hc, Wl (fst (fncall_parts sp lb docs hc)) <= costl docs.
Proof.
  induction docs as [|d tl IH]; intros hc; [cbn; lia|]. cbn [fncall_parts]. rewrite tsum_cons.
  specialize (IH (match is_commented d with Some _ => true | None => hc end)).
  destruct (fncall_parts sp lb tl _) as [rest hc']. cbn [fst] in *. rewrite tsum_cons.
  pose proof (uncomment_wt d) as Hu. destruct (is_commented d) as [c|] eqn:Ec.
  - pose proof (commented_cost d c Ec). destruct tl; wsimp; lia.
  - pose proof (cost_wt d). destruct tl, hc; wsimp; lia.
Qed.

Lemma kwarg_doc_cost k d : cost (kwarg_doc (k, d)) <= cost d + 10.
Proof.
  rewrite kwarg_doc_eq. pose proof (uncomment_wt d). unfold cost, csz.
  destruct (is_commented d); cbn [is_commented]; wsimp; lia.
Qed.

Lemma build_fncall_bare ctx f args kws hug n :
  W f + 20 + costl args + costl (map kwarg_doc kws) <= n -> bare (build_fncall sp lb ctx f args kws hug) n.
Proof.
  intros Hn. destruct (build_fncall_form sp lb ctx f args kws hug) as [_ _|a -> _|].
  - split; [reflexivity|wsimp; lia].
  - rewrite tsum_cons in Hn. pose proof (cost_wt a). split; [reflexivity|wsimp; lia].
  - pose proof (fncall_parts_wl (args ++ map kwarg_doc kws) false) as Hp. rewrite tsum_app in Hp. unfold call_body.
    destruct (fncall_parts sp lb _ false) as [parts hc]. cbn [fst] in Hp. apply bare_ab_group. wsimp. rewrite tsum_fold. lia.
Qed.

Lemma call_alt_d_bare ctx f hug same nested kws n :
  30 + Nat.max (costl (same tt)) (costl (nested tt) + costl (map kwarg_doc (kws tt))) <= n ->
  bare (call_alt_d sp lb ctx f hug same nested kws) n.
Proof.
  intros Hn. unfold call_alt_d. destruct (depth_le0 ctx); [split; [reflexivity|wsimp; lia]|].
  destruct hug; apply build_fncall_bare; cbn [map tsum fold_right]; wsimp; lia.
Qed.

Lemma call_noargs_bare ctx f n : 30 <= n -> bare (call_noargs sp lb ctx f) n.
Proof. intros Hn. now apply call_alt_d_bare. Qed.

Lemma call_ellipsis_bare ctx f n : 90 <= n -> bare (call_ellipsis sp lb ctx f) n.
Proof. intros Hn. apply call_alt_d_bare. cbn. lia. Qed.

Lemma sub_wrap_bare ctx hug sub d n m : bare d n -> n + 80 <= m -> bare (sub_wrap sp lb ctx hug sub d) m.
Proof.
  intros Hd Hm. destruct sub; [|now apply (bare_le d n); [|lia]]. apply bare_cost in Hd.
  apply build_fncall_bare. cbn [map tsum fold_right]. wsimp. lia.
Qed.

Lemma pos_digits_len : forall fuel n acc, length (pos_digits fuel n acc) <= fuel + length acc.
Proof.
  induction fuel as [|f IH]; intros n acc; cbn [pos_digits]; [lia|].
  destruct (n <? 10)%N; [cbn [length]; lia|]. specialize (IH (n / 10)%N ((48 + n mod 10)%N :: acc)). cbn [length] in IH. lia.
Qed.

Lemma repr_int_len z : length (repr_int z) <= 2 + N.to_nat (N.log2 (Z.abs_N z)).
Proof.
  unfold repr_int. pose proof (pos_digits_len (S (N.to_nat (N.log2 (Z.abs_N z)))) (Z.abs_N z) []) as H.
  cbn [length] in H. destruct (z <? 0)%Z; cbn [length]; lia.
Qed.

Lemma trunc_comment_len (k : Z) (len : nat) : (0 <= k <= Z.of_nat len)%Z -> length (trunc_comment k) <= 23 + len.
Proof.
  intros Hk. unfold trunc_comment. rewrite !app_length. cbn [length].
  pose proof (repr_int_len k). pose proof (N.log2_le_lin (Z.abs_N k)). lia.
Qed.

Definition olen (o : option str) : nat := match o with Some t => length t | None => O end.

Lemma join_comments_len t tr : length (join_comments t tr) <= length t + 2 + olen tr.
Proof. unfold join_comments. destruct tr as [[|x xs]|]; cbn [olen]; rewrite ?app_length; cbn [length]; lia. Qed.

Lemma notice_len ctx len tr : (0 <= c_maxlen ctx)%Z -> olen (notice ctx len tr) <= 25 + len + olen tr.
Proof.
  intros Hm. unfold notice. destruct (c_maxlen ctx <? Z.of_nat len)%Z eqn:E; [|lia]. cbn [olen].
  pose proof (join_comments_len (trunc_comment (Z.of_nat len - c_maxlen ctx)%Z) tr).
  pose proof (trunc_comment_len (Z.of_nat len - c_maxlen ctx)%Z len ltac:(lia)). lia.
Qed.

Lemma cost_commentdoc t : cost (commentdoc sp lb t) <= 74 + 20 * length t.
Proof. unfold cost, csz. pose proof (commentdoc_wt t). unfold commentdoc at 2. cbn [is_commented]. lia. Qed.

Lemma br_wt kind : W (lbr kind) = 3 /\ W (rbr kind) = 3.
Proof. now destruct kind as [|[|k]]. Qed.

(** sequences: [len] the length of the value, of which [c_maxlen ctx] elements are shown;
    the notice of the others has up to 25 + len characters *)
Lemma seq_d_bare ctx kind len sub tr els n : (0 <= c_maxlen ctx)%Z ->
  costl (els tt) + 20 * (len + olen tr + 35) <= n -> bare (seq_d sp lb ctx kind len sub tr els) n.
Proof.
  intros Hm Hn. rewrite seq_d_eq. destruct (br_wt kind) as [Hl Hr].
  assert (Hcut : bare (Cat [lbr kind; ELLIPSIS; rbr kind]) 10) by (split; [reflexivity|wsimp; lia]).
  destruct len as [|len'].
  - destruct (_ && _); [split; [reflexivity|wsimp; lia]|apply call_noargs_bare; lia].
  - destruct (depth_is0 ctx).
    + destruct (Nat.ltb kind 2); [apply (sub_wrap_bare _ _ _ _ _ _ Hcut)|apply call_ellipsis_bare]; lia.
    + pose proof (notice_len ctx (S len') tr Hm) as Ht.
      assert (H0 : costl (seq_shown ctx (S len') (els tt)) <= costl (els tt)) by (destruct len'; [apply le_n|apply tsum_take]).
      unfold seq_lit. destruct (notice ctx (S len') tr) as [t|]; cbn [olen] in Ht.
      * eapply sub_wrap_bare; [apply sequence_of_docs_bare, le_n|].
        rewrite tsum_app, tsum_cons. pose proof (cost_commentdoc t). cbn [tsum fold_right]. lia.
      * eapply sub_wrap_bare; [apply sequence_of_docs_bare, le_n|]. lia.
Qed.

(** a pair costs its key, its value and - where the value is commented - the
    value printed once more with the PLAIN strategy: one of the two is laid out *)
Definition tcost (t : doc * doc * (unit -> doc)) : nat :=
  cost (fst (fst t)) + (20 * csz (snd (fst t)) + 50 + Nat.max (W (snd (fst t))) (W (snd t tt))) + 30.
Notation tcostl := (tsum tcost).

Lemma dict_part_wt ctx last k0 v0 vp :
  W (fst (dict_part sp lb ctx last k0 v0 vp)) <= tcost (k0, v0, vp).
Proof.
  unfold dict_part, tcost. cbn [fst snd].
  pose proof (uncomment_wt k0) as Hk. pose proof (uncomment_wt v0) as Hv. pose proof (cost_wt k0) as Hc.
  destruct (is_commented k0) as [kc|] eqn:Ek; [apply commented_cost in Ek|];
    (destruct (is_commented v0) as [vc|] eqn:Ev; [pose proof (commentdoc_wt vc); unfold csz; rewrite Ev|]);
    destruct last; wsimp; lia.
Qed.

Lemma dict_parts_wl ctx : forall l, Wl (fst (dict_parts sp lb ctx l)) <= tcostl l.
Proof.
  induction l as [|[[k x] xp] tl IH]; [cbn; lia|]. rewrite dict_parts_cons, !tsum_cons.
  pose proof (dict_part_wt ctx (match tl with [] => true | _ => false end) k x xp). lia.
Qed.

Lemma dict_d_bare ctx sub tr so triples n : (0 <= c_maxlen ctx)%Z -> NoDup so ->
  tcostl (triples tt) + 20 * (length (triples tt) + olen tr + 35) <= n -> bare (dict_d sp lb ctx sub tr so triples) n.
Proof.
  intros Hm Hnd Hn. rewrite dict_d_eq. set (all := triples tt) in *.
  destruct (depth_is0 ctx).
  { apply (sub_wrap_bare _ _ _ _ 10); [split; [reflexivity|wsimp; lia]|lia]. }
  pose proof (notice_len ctx (length all) tr Hm) as Ht.
  assert (Hi : Wl (dict_items sp lb ctx tr so all) <= tcostl all + 30 + 20 * olen (notice ctx (length all) tr)).
  { unfold dict_items. rewrite tsum_app. pose proof (dict_parts_wl ctx (dict_shown ctx so all)) as Hp.
    assert (Hs : tcostl (dict_shown ctx so all) <= tcostl all).
    { etransitivity; [apply tsum_take|]. destruct (c_sort ctx); [apply reorder_le, Hnd|apply le_n]. }
    destruct (notice ctx (length all) tr) as [t|]; cbn [olen tsum fold_right]; [pose proof (commentdoc_wt t); wsimp|]; lia. }
  assert (HL : bare (dict_lit sp lb ctx tr so all) (tcostl all + 50 + 20 * olen (notice ctx (length all) tr))).
  { unfold dict_lit, bracket. apply bare_ab_group. wsimp. rewrite tsum_fold. lia. }
  destruct sub as [c|]; [destruct (dict_items _ _ _ _ _ _)|]; try (apply (sub_wrap_bare _ _ _ _ _ _ HL); lia).
  apply call_noargs_bare. lia.
Qed.

Lemma str_doc_bare ctx bytes s wrapc path n : 80 * (length s + 2) <= n -> bare (str_doc ctx bytes s wrapc path) n.
Proof.
  intros Hn. unfold str_doc. destruct (depth_is0 ctx); (split; [reflexivity|]); [wsimp; lia|].
  cbn [wt]. unfold cb_str. cbn [sp_s]. lia.
Qed.

Lemma num_d_bare ctx t base lit sub n : 90 <= n -> bare (num_d sp lb ctx t base lit sub) n.
Proof.
  intros Hn. unfold num_d. destruct (depth_is0 ctx); [now apply call_ellipsis_bare|].
  apply (sub_wrap_bare ctx false sub (tok t lit) 3); [now apply tok_bare|lia].
Qed.

Lemma special_float_d_bare ctx name sub n : 80 * (length name + 3) <= n -> bare (special_float_d sp lb ctx name sub) n.
Proof.
  intros Hn. unfold special_float_d. destruct (depth_is0 ctx); [apply call_ellipsis_bare; lia|].
  pose proof (bare_cost _ _ (str_doc_bare (nested_hang ctx) false name None false _ (le_n _))).
  apply call_alt_d_bare. cbn [map length tsum fold_right]. lia.
Qed.

Lemma frozen_d_bare ctx len sub lst n m : bare (lst tt) n -> n + 80 <= m -> bare (frozen_d sp lb ctx len sub lst) m.
Proof.
  intros Hc%bare_cost Hm. destruct len; [apply call_noargs_bare; lia|].
  apply call_alt_d_bare. cbn [map length tsum fold_right]. lia.
Qed.

Fixpoint vsz (v : pyval) : nat :=
  match v with
  | VList l | VTuple l | VSet l | VFrozenset l =>
      S ((fix sum (l : list pyval) : nat := match l with [] => O | x :: tl => (vsz x + sum tl)%nat end) l)
  | VDict kvs _ =>
      S ((fix sum (l : list (pyval * pyval)) : nat :=
            match l with [] => O | (k, x) :: tl => (vsz k + vsz x + sum tl)%nat end) kvs)
  | VSub _ b => S (vsz b)
  | VCommented x c | VTrailing x c => S (length c + vsz x)
  | VCall _ args kwargs =>
      S (((fix sum (l : list pyval) : nat := match l with [] => O | x :: tl => (vsz x + sum tl)%nat end) args +
         (fix sum (l : list (str * pyval)) : nat :=
            match l with [] => O | (_, x) :: tl => (vsz x + sum tl)%nat end) kwargs)%nat)
  | VStr s | VBytes s | VPath _ s => S (length s)
  | _ => 1%nat
  end.

Notation zsum := (tsum vsz).
Notation zkv := (tsum (fun kv : pyval * pyval => vsz (fst kv) + vsz (snd kv))).
Notation zkw := (tsum (fun kv : str * pyval => vsz (snd kv))).

Lemma vsz_seq k l : vsz (vseq k l) = S (zsum l).
Proof. now destruct k. Qed.
Lemma vsz_dict kvs so : vsz (VDict kvs so) = S (zkv kvs).
Proof. cbn [vsz]. now rewrite sumkv_fold. Qed.
Lemma vsz_call f a kw : vsz (VCall f a kw) = S (zsum a + zkw kw).
Proof. cbn [vsz]. now rewrite sumkw_fold. Qed.
Lemma vsz_osub sub b n : n <= vsz b -> n <= vsz (osub sub b).
Proof. destruct sub; cbn [osub vsz]; lia. Qed.

(** every dict's sorted-order list is duplicate free (it is a permutation of the indices) *)
Fixpoint sorted_ok (v : pyval) : Prop :=
  match v with
  | VList l | VTuple l | VSet l | VFrozenset l =>
      (fix all (l : list pyval) : Prop := match l with [] => True | x :: tl => sorted_ok x /\ all tl end) l
  | VDict kvs so =>
      NoDup so /\
      (fix all (l : list (pyval * pyval)) : Prop :=
         match l with [] => True | (k, x) :: tl => sorted_ok k /\ sorted_ok x /\ all tl end) kvs
  | VSub _ b => sorted_ok b
  | VCommented x _ | VTrailing x _ => sorted_ok x
  | VCall _ args kwargs =>
      (fix all (l : list pyval) : Prop := match l with [] => True | x :: tl => sorted_ok x /\ all tl end) args /\
      (fix all (l : list (str * pyval)) : Prop :=
         match l with [] => True | (_, x) :: tl => sorted_ok x /\ all tl end) kwargs
  | _ => True
  end.

Lemma ok_osub sub b : sorted_ok (osub sub b) -> sorted_ok b.
Proof. now destruct sub. Qed.
Lemma ok_seq k l : sorted_ok (vseq k l) -> Forall sorted_ok l.
Proof. destruct k; apply all_Forall. Qed.

Notation pretty_pv := (Printers.pretty_pv sp lb).

Lemma joinc_len o c : length (joinc o c) <= olen o + 1 + length c.
Proof.
  unfold joinc. destruct o as [[|a t]|]; cbn [truthy olen]; try lia.
  destruct c; rewrite ?app_length; cbn [length]; lia.
Qed.

Lemma olen_truthy o : olen (truthy o) <= olen o.
Proof. destruct o as [[|x xs]|]; cbn; lia. Qed.

Definition K : nat := 1000.

(** The invariant: the cost of the document leaves 50 to spare below [K] times
    the size of the value and of the comments handed down; the comment the
    document carries does not depend on the context (a dict prints a commented
    value with two strategies and lays out one of them). *)
Definition LinV (v : pyval) : Prop :=
  sorted_ok v -> forall cm, exists c, forall ctx tr, (0 <= c_maxlen ctx)%Z ->
    csz (pretty_pv v ctx cm tr) = c /\
    cost (pretty_pv v ctx cm tr) + 50 <= K * (vsz v + olen cm + olen tr).

(** A document without a comment, of whose weight [K * m] is accounted for by
    parts of size [m].  Only here and in [str_K] does the value of [K] matter:
    it has to cover the budget 20 * 42, the 2 of [finish] and the two 50s. *)
Lemma lin_finish cm tr d m s : S m <= s -> bare d (K * m + 20 * (olen (truthy tr) + 42)) ->
  csz (finish cm d) = olen (truthy cm) /\ cost (finish cm d) + 50 <= K * (s + olen cm + olen tr).
Proof.
  intros Hs [Hc Hw]. pose proof (olen_truthy cm). pose proof (olen_truthy tr).
  assert (E : csz (finish cm d) = olen (truthy cm) /\ W (finish cm d) <= W d + 2).
  { unfold finish, csz. destruct (truthy cm); cbn [is_commented olen wt]; [lia|]. rewrite Hc. lia. }
  destruct E as [E Hf]. split; [exact E|]. unfold cost.
  (* [K] as a product of small numerals: a unary 1000 is dear in [lia] *)
  change K with (20 * 50) in *. lia.
Qed.

Lemma str_K n : 80 * n <= K * n.
Proof. apply Nat.mul_le_mono_r. change K with (20 * 50). lia. Qed.

Lemma lin_cost x ctx : LinV x -> sorted_ok x -> (0 <= c_maxlen ctx)%Z ->
  cost (pretty_pv x ctx None None) + 50 <= K * vsz x.
Proof. intros HL Hok Hm. destruct (HL Hok None) as [c H]. destruct (H ctx None Hm) as [_ Hc]. cbn [olen] in Hc. lia. Qed.

Lemma lin_map (l : list pyval) ctx : Forall LinV l -> Forall sorted_ok l -> (0 <= c_maxlen ctx)%Z ->
  costl (map (fun x => pretty_pv x ctx None None) l) + 50 * length l <= K * zsum l.
Proof.
  intros HL Hok Hm. apply tsum_map_le. revert HL Hok. apply Forall_impl2. intros x Hx Hox. exact (lin_cost x ctx Hx Hox Hm).
Qed.

Lemma lin_elems (l : list pyval) ctx : Forall LinV l -> Forall sorted_ok l -> (0 <= c_maxlen ctx)%Z ->
  costl (elems_ sp lb ctx l) + 50 * length l <= K * zsum l.
Proof.
  intros HL Hok Hm. rewrite elems_eq. now apply lin_map.
Qed.

Lemma lin_kws (kw : list (str * pyval)) ctx :
  Forall (fun kv => LinV (snd kv)) kw -> Forall (fun kv => sorted_ok (snd kv)) kw -> (0 <= c_maxlen ctx)%Z ->
  costl (map kwarg_doc (map (fun '(k, x) => (k, pretty_pv x ctx None None)) kw)) + 40 * length kw <= K * zkw kw.
Proof.
  intros HL Hok Hm. rewrite map_map. apply tsum_map_le. revert HL Hok. apply Forall_impl2. intros [k x] Hx Hox.
  pose proof (kwarg_doc_cost k (pretty_pv x ctx None None)). pose proof (lin_cost x ctx Hx Hox Hm). cbn [snd]. lia.
Qed.

Lemma lin_key ctx k : LinV k -> sorted_ok k -> (0 <= c_maxlen ctx)%Z ->
  cost (key_doc_ sp lb ctx k) + 50 <= K * vsz k.
Proof.
  intros HL Hok Hm. rewrite key_doc_eq. apply lin_cost; auto. unfold key_ctx. now destruct (str_key k).
Qed.

Lemma lin_triples ctx kvs :
  Forall (fun kv => LinV (fst kv) /\ LinV (snd kv)) kvs -> Forall (fun kv => sorted_ok (fst kv) /\ sorted_ok (snd kv)) kvs ->
  (0 <= c_maxlen ctx)%Z ->
  tcostl (triples_ sp lb ctx kvs) + 70 * length kvs <= K * zkv kvs.
Proof.
  intros HL Hok Hm. apply tsum_map_le. revert HL Hok. apply Forall_impl2. intros [k x] [Hk Hx] [Hok Hox].
  pose proof (lin_key ctx k Hk Hok Hm).
  destruct (Hx Hox None) as [c Hc].
  destruct (Hc (with_strategy (nested_call ctx) MIndented) None Hm) as [E1 H1].
  destruct (Hc (with_strategy (nested_call ctx) MPlain) None Hm) as [E2 H2].
  unfold cost in H1, H2. unfold tcost. cbn [fst snd olen] in *. lia.
Qed.

Lemma special_name_len f : length (special_name f) <= 4.
Proof. destruct f; cbn; lia. Qed.

Theorem pretty_lin : forall v, LinV v.
Proof.
  induction v as [sub z|sub r|sub f|sub bytes s|sub k l IH|sub l IH|sub kvs so IH|b| | |c b Hb|x c IH|x c IH|f args kw IHa IHk|c s|r]
    using pyval_ind'; intros Hok cm.
  (* but for the two wrappers, the comment carried is the one [finish] adds: [lin_finish] gives the witness *)
  - eexists. intros ctx tr Hm. rewrite pretty_int.
    eapply lin_finish; [apply vsz_osub, le_n|apply num_d_bare; lia].
  - eexists. intros ctx tr Hm. rewrite pretty_float.
    eapply lin_finish; [apply vsz_osub, le_n|apply num_d_bare; lia].
  - eexists. intros ctx tr Hm. rewrite pretty_special. pose proof (special_name_len f).
    eapply lin_finish; [apply vsz_osub; destruct f; apply le_n|apply special_float_d_bare; lia].
  - eexists. intros ctx tr Hm. rewrite pretty_str. pose proof (str_K (length s)).
    eapply lin_finish; [apply vsz_osub; destruct bytes; apply le_n|apply str_doc_bare; lia].
  - eexists. intros ctx tr Hm. rewrite pretty_seq.
    apply ok_osub, ok_seq in Hok. pose proof (lin_elems l ctx IH Hok Hm).
    eapply lin_finish; [apply vsz_osub; rewrite vsz_seq; apply le_n|apply seq_d_bare; [exact Hm|cbv beta; lia]].
  - eexists. intros ctx tr Hm. rewrite pretty_frozen.
    apply ok_osub, (all_Forall sorted_ok) in Hok. pose proof (lin_elems l ctx IH Hok Hm).
    apply lin_finish with (m := zsum l); [apply vsz_osub, le_n|].
    eapply frozen_d_bare; [apply seq_d_bare, le_n; exact Hm|cbv beta; cbn [olen]; lia].
  - eexists. intros ctx tr Hm. rewrite pretty_dict.
    apply ok_osub in Hok as [Hnd Hok]. apply (allkv_Forall sorted_ok sorted_ok) in Hok.
    pose proof (lin_triples ctx kvs IH Hok Hm).
    eapply lin_finish; [apply vsz_osub; rewrite vsz_dict; apply le_n|apply dict_d_bare; [exact Hm|exact Hnd|]].
    unfold triples_ at 2. rewrite map_length. lia.
  - eexists. intros ctx tr Hm. rewrite pretty_bool.
    apply (lin_finish _ _ _ 0); [apply le_n|apply tok_bare; lia].
  - eexists. intros ctx tr Hm. rewrite pretty_none.
    apply (lin_finish _ _ _ 0); [apply le_n|apply tok_bare; lia].
  - eexists. intros ctx tr Hm. rewrite pretty_ellipsis.
    apply (lin_finish _ _ _ 0); [apply le_n|apply tok_bare; lia].
  - eexists. intros ctx tr Hm. rewrite pretty_badsub by exact Hb.
    apply (lin_finish _ _ _ (vsz b)); [apply le_n|split; [reflexivity|cbn [wt]; lia]].
  - destruct (IH Hok (Some (joinc cm c))) as [n Hn]. exists n. intros ctx tr Hm. rewrite pretty_commented.
    destruct (Hn ctx (truthy tr) Hm) as [E H]. split; [exact E|]. etransitivity; [exact H|]. apply Nat.mul_le_mono_l.
    pose proof (joinc_len cm c). pose proof (olen_truthy tr). cbn [vsz olen]. lia.
  - destruct (IH Hok cm) as [n Hn]. exists n. intros ctx tr Hm. rewrite pretty_trailing.
    destruct (Hn ctx (Some (joinc (truthy tr) c)) Hm) as [E H]. split; [exact E|]. etransitivity; [exact H|]. apply Nat.mul_le_mono_l.
    pose proof (joinc_len (truthy tr) c). pose proof (olen_truthy tr). cbn [vsz olen]. lia.
  - eexists. intros ctx tr Hm. rewrite pretty_call.
    destruct Hok as [Ha Hk]. apply (all_Forall sorted_ok) in Ha. apply (allkw_Forall sorted_ok) in Hk.
    pose proof (lin_map args ctx IHa Ha Hm). pose proof (lin_map args (nested_hang ctx) IHa Ha Hm).
    pose proof (lin_kws kw (nested_hang ctx) IHk Hk Hm).
    eapply lin_finish; [rewrite vsz_call; apply le_n|apply call_alt_d_bare; cbv beta; lia].
  - eexists. intros ctx tr Hm. rewrite pretty_path. pose proof (str_K (length s)).
    apply (lin_finish _ _ _ (length s)); [apply le_n|].
    eapply (sub_wrap_bare ctx false (Some c)); [apply str_doc_bare, le_n|lia].
  - eexists. intros ctx tr Hm. rewrite pretty_repr.
    apply (lin_finish _ _ _ 0); [apply le_n|split; [reflexivity|cbn [wt]; lia]].
Qed.

Lemma top_doc_wt v indent depth maxlen sort :
  W (top_doc sp lb v indent depth maxlen sort) <= cost (pretty_pv v (mkCtx indent depth MPlain maxlen sort) None None).
Proof.
  unfold top_doc. set (d := pretty_pv v _ None None). pose proof (cost_wt d).
  destruct (is_commented d) as [c|] eqn:Ec; [apply commented_cost in Ec; wsimp|]; lia.
Qed.

End LD.
