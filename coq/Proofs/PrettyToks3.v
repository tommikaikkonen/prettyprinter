(** The denotation theorem: in EVERY layout, the document the printers build
    for a value denotes the tokens of the expression [expr_of] prescribes -
    whatever the indent, the multiline strategy and the comments attached. *)

From PP Require Import Doc PyVal Printers PyExpr DocToks PrettyToks1 PrettyToks2 ValInd.

(** well-formed values: classes print as names, subclass instances wrap a
    built-in value, opaque reprs are not blank *)
Definition is_base (v : pyval) : bool :=
  match v with
  | VInt _ | VFloat _ | VInf | VNegInf | VNan | VStr _ | VBytes _
  | VList _ | VTuple _ | VSet _ | VFrozenset _ | VDict _ _ => true
  | _ => false
  end.

Fixpoint wf_val (v : pyval) : Prop :=
  match v with
  | VList l | VTuple l | VSet l | VFrozenset l =>
      (fix all (l : list pyval) : Prop := match l with [] => True | x :: tl => wf_val x /\ all tl end) l
  | VDict kvs _ =>
      (fix all (l : list (pyval * pyval)) : Prop :=
         match l with [] => True | (k, x) :: tl => wf_val k /\ wf_val x /\ all tl end) kvs
  | VSub c b => wf_cls c /\ is_base b = true /\ wf_val b
  | VCommented x _ | VTrailing x _ => wf_val x
  | VCall f args kwargs =>
      wf_cls f /\
      (fix all (l : list pyval) : Prop := match l with [] => True | x :: tl => wf_val x /\ all tl end) args /\
      (fix all (l : list (str * pyval)) : Prop :=
         match l with [] => True | (_, x) :: tl => wf_val x /\ all tl end) kwargs
  | VPath c _ => wf_cls c
  | VRepr r => ws_only r = false
  | _ => True
  end.

Definition wf_all (l : list pyval) : Prop := Forall wf_val l.

Lemma wf_osub sub b : wf_val (osub sub b) -> wf_sub sub /\ wf_val b.
Proof. destruct sub; cbn; tauto. Qed.

Section Main.
Variable is_space_u : N -> bool.
Variable is_linebreak : N -> bool.
Notation pretty_pv := (pretty_pv is_space_u is_linebreak).

Definition Goal_ (v : pyval) : Prop :=
  forall ctx cm tr, wf_val v ->
    DT (pretty_pv v ctx cm tr) (etoks (expr_of (ectx_of ctx) v (trb tr))).

Lemma finish_DT (cm : option str) d ts : DT d ts -> DT (finish cm d) ts.
Proof. intros H. unfold finish. destruct (truthy cm); [now apply DT_acomment|exact H]. Qed.

Lemma map_DT (l : list pyval) c' : Forall wf_val l -> Forall Goal_ l ->
  Forall2 DT (map (fun x => pretty_pv x c' None None) l) (map etoks (map (fun x => expr_of (ectx_of c') x false) l)).
Proof.
  intros Hwf IH. rewrite map_map. apply Forall2_map. revert IH Hwf. apply Forall_impl2.
  intros x G Hx. exact (G c' None None Hx).
Qed.

Lemma elems_DT ctx l : Forall wf_val l -> Forall Goal_ l ->
  Forall2 DT (elems_ is_space_u is_linebreak ctx l) (map etoks (eelems (ectx_of ctx) l)).
Proof.
  intros Hwf IH. rewrite elems_eq. exact (map_DT l _ Hwf IH).
Qed.

Lemma seq_case ctx k sub tr l : wf_sub sub -> Forall wf_val l -> Forall Goal_ l ->
  DT (seq_d is_space_u is_linebreak ctx (knat k) (length l) sub (truthy tr) (fun _ => elems_ is_space_u is_linebreak ctx l))
     (etoks (eseq (ectx_of ctx) k (length l) sub (trb tr) (eelems (ectx_of ctx) l))).
Proof.
  intros Hw Hwf IH. rewrite <- (map_length (fun x => expr_of (e_nested (ectx_of ctx)) x false) l).
  now apply seq_d_DT, elems_DT.
Qed.

Lemma key_DT ctx k : wf_val k -> Goal_ k ->
  DT (key_doc_ is_space_u is_linebreak ctx k) (etoks (key_expr_ (ectx_of ctx) k)).
Proof.
  intros Hwf IH. rewrite key_doc_eq, key_expr_eq. unfold key_ctx. destruct (str_key k); exact (IH _ None None Hwf).
Qed.

Lemma triples_TR ctx kvs :
  Forall (fun kv => wf_val (fst kv) /\ wf_val (snd kv)) kvs ->
  Forall (fun kv => Goal_ (fst kv) /\ Goal_ (snd kv)) kvs ->
  Forall2 TR (triples_ is_space_u is_linebreak ctx kvs) (epairs (ectx_of ctx) kvs).
Proof.
  intros Hwf IH. apply Forall2_map. revert IH Hwf. apply Forall_impl2.
  intros [k x] [Gk Gx] [Hk Hx]. repeat split; [now apply key_DT|now apply Gx..].
Qed.

(** a trailing comment of its own, or one inherited from an outer wrapper *)
Lemma trb_truthy tr : trb (truthy tr) = trb tr.
Proof. now destruct tr as [[|c t]|]. Qed.
Lemma trb_joinc tr c : trb (Some (joinc (truthy tr) c)) = trb tr || nonempty c.
Proof. now destruct tr as [[|a t]|], c. Qed.

Theorem pretty_pv_DT : forall v ctx cm tr, wf_val v ->
  DT (pretty_pv v ctx cm tr) (etoks (expr_of (ectx_of ctx) v (trb tr))).
Proof.
  induction v as [sub z|sub r|sub f|sub bytes s|sub k l IH|sub l IH|sub kvs so IH|b| | |c b Hb|x c IH|x c IH|f args kw IHa IHk|c s|r]
    using pyval_ind'; intros ctx cm tr Hwf.
  1-7: apply wf_osub in Hwf as [Hw Hwf].
  - rewrite pretty_int, expr_int. apply finish_DT, num_d_DT; [dt|exact Hw].
  - rewrite pretty_float, expr_float. apply finish_DT, num_d_DT; [dt|exact Hw].
  - rewrite pretty_special, expr_special. now apply finish_DT, special_float_d_DT.
  - rewrite pretty_str, expr_str. now apply finish_DT, str_doc_DT.
  - rewrite pretty_seq, expr_seq. apply finish_DT, seq_case; auto. destruct k; now apply (all_Forall wf_val).
  - rewrite pretty_frozen, expr_frozen. apply (all_Forall wf_val) in Hwf.
    apply finish_DT, frozen_d_DT; [exact Hw|]. now apply (seq_case ctx KList None None).
  - rewrite pretty_dict, expr_dict. apply (allkv_Forall wf_val wf_val) in Hwf.
    now apply finish_DT, dict_d_DT, triples_TR.
  - rewrite pretty_bool, expr_bool. apply finish_DT. dt.
  - rewrite pretty_none, expr_none. apply finish_DT. dt.
  - rewrite pretty_ellipsis, expr_ellipsis. apply finish_DT, DT_ELLIPSIS.
  - (* a well-formed subclass instance wraps a built-in ([is_base]), and those have a kind *)
    destruct Hwf as (_ & Hb' & _). destruct b; discriminate.
  - rewrite pretty_commented, expr_commented, <- trb_truthy. now apply IH.
  - rewrite pretty_trailing, expr_trailing, <- trb_joinc. now apply IH.
  - destruct Hwf as (Hf & Ha & Hk). apply (all_Forall wf_val) in Ha. apply (allkw_Forall wf_val) in Hk.
    rewrite pretty_call, expr_call. apply finish_DT, call_alt_d_DT; [exact Hf|..]; destruct (hugged args kw) eqn:E.
    + now apply map_DT.
    + now apply (map_DT args (nested_hang ctx)).
    + rewrite (hugged_kw _ _ E). constructor.
    + rewrite !map_map. apply Forall2_map. revert IHk Hk. apply Forall_impl2.
      intros [k x] G Hx. exact (kwarg_doc_DT k _ _ (G (nested_hang ctx) None None Hx)).
  - rewrite pretty_path, expr_path. apply finish_DT, call1_DT; [exact Hwf|]. now apply str_doc_DT.
  - rewrite pretty_repr, expr_repr. now apply finish_DT, DT_text.
Qed.

(** python_to_sdocs: the document handed to the layout engine *)
Theorem top_doc_DT v indent depth maxlen sort : wf_val v ->
  DT (top_doc is_space_u is_linebreak v indent depth maxlen sort)
     (etoks (expr_of (mkE depth maxlen sort) v false)).
Proof.
  intros Hwf. unfold top_doc.
  pose proof (pretty_pv_DT v (mkCtx indent depth MPlain maxlen sort) None None Hwf) as H.
  destruct (is_commented _) as [c|]; [dt|exact H].
Qed.

End Main.
