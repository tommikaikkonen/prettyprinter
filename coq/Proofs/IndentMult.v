(** C03, second clause: every line break of every layout of a document whose
    nest offsets are all the indent setting - as those of the printers'
    documents are, IndentE2E.v - is indented by a multiple of it. *)
From PP Require Import Doc Sem DocInd SemLemmas.

(** all nest offsets are [k]; no align; the string printer was given indent [k] *)
Definition nestq (k : Z) (d : doc) : bool :=
  match d with
  | Nest j _ => j =? k
  | CtxS p => sp_indent p =? k
  | Align _ | PopD _ => false
  | _ => true
  end.
Definition nestk (k : Z) : doc -> bool := dall (nestq k).

Definition lines_ok (k : Z) (o : list sdoc) : Prop :=
  Forall (fun x => match x with SLine j => (k | j) | _ => True end) o.

Lemma lines_ok_app k a b : lines_ok k a -> lines_ok k b -> lines_ok k (a ++ b).
Proof. intros. apply Forall_app; auto. Qed.

Section IM.
Variable evs : strp -> Z -> Z -> Z -> Z -> doc.
Variables w rw k : Z.
Hypothesis evs_ok : forall p i c, sp_indent p = k -> nestk k (evs p i c w rw) = true.

Theorem lay_indent_multiple :
  forall m i c d o c', Lay evs w rw m i c d o c' -> nestk k d = true -> (k | i) -> lines_ok k o.
Proof.
  intros m i c d o c' H Hd.
  apply (lay_all evs w rw (nestq k) (Z.divide k) (lines_ok k)) with m c d c';
    auto using lines_ok_app; try discriminate; try (repeat constructor; assumption).
  (* left: [q_evs], [I_nest], [P_wrap]; no pop and no align passes [nestq] *)
  - intros p i0 c0 E. apply evs_ok. now apply Z.eqb_eq.
  - intros i0 j _ ->%Z.eqb_eq Hi. now apply Z.divide_add_r; [|apply Z.divide_refl].
  - intros a o0 Ho. constructor; [exact I|]. apply lines_ok_app; [exact Ho|repeat constructor].
Qed.

End IM.
