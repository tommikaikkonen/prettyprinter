(** Values by the printer that handles them: a subclass instance [VSub c b]
    of a built-in [b] goes through the printer of [b] with the class as
    constructor, so every fact about [pretty_pv] / [expr_of] is proved for
    [osub sub b] with [sub] a variable.  First the list facts the towers over
    values share; then the induction principle with [Forall] hypotheses for
    the nested lists, [pretty_pv] / [expr_of] case by case, and the printers of
    calls, sequences and dicts with their case analysis done. *)
From PP Require Import Tac Doc PyVal Consts Printers PyExpr PyEval.

(** the nested conjunctions of the predicates on values, as [Forall] *)
Lemma all_Forall {A} (P : A -> Prop) l :
  (fix all (l : list A) : Prop := match l with [] => True | x :: tl => P x /\ all tl end) l <-> Forall P l.
Proof. induction l as [|x tl IH]; [split; constructor|]. now rewrite Forall_cons_iff, <- IH. Qed.

Lemma allkv_Forall {A B} (P : A -> Prop) (Q : B -> Prop) l :
  (fix all (l : list (A * B)) : Prop := match l with [] => True | (k, x) :: tl => P k /\ Q x /\ all tl end) l
  <-> Forall (fun kv => P (fst kv) /\ Q (snd kv)) l.
Proof.
  induction l as [|[k x] tl IH]; [split; constructor|]. rewrite Forall_cons_iff, <- IH. symmetry. apply and_assoc.
Qed.

Lemma allkw_Forall {A B} (Q : B -> Prop) (l : list (A * B)) :
  (fix all (l : list (A * B)) : Prop := match l with [] => True | (_, x) :: tl => Q x /\ all tl end) l
  <-> Forall (fun kv => Q (snd kv)) l.
Proof. induction l as [|[k x] tl IH]; [split; constructor|]. now rewrite Forall_cons_iff, <- IH. Qed.

(** the nested sums of a size over values, as [fold_right] (over a plain list the nested [fix] converts to one) *)
Lemma sumkv_fold {A B} (f : A -> nat) (g : B -> nat) l :
  (fix sum (l : list (A * B)) : nat := match l with [] => O | (k, x) :: tl => (f k + g x + sum tl)%nat end) l
  = fold_right (fun kv a => (f (fst kv) + g (snd kv) + a)%nat) O l.
Proof. induction l as [|[k x] tl IH]; [reflexivity|]. cbn [fold_right fst snd]. now rewrite <- IH. Qed.
Lemma sumkw_fold {A B} (g : B -> nat) (l : list (A * B)) :
  (fix sum (l : list (A * B)) : nat := match l with [] => O | (_, x) :: tl => (g x + sum tl)%nat end) l
  = fold_right (fun kv a => (g (snd kv) + a)%nat) O l.
Proof. induction l as [|[k x] tl IH]; [reflexivity|]. cbn [fold_right snd]. now rewrite <- IH. Qed.

Lemma Forall_impl2 {A} (P Q R : A -> Prop) l :
  (forall x, P x -> Q x -> R x) -> Forall P l -> Forall Q l -> Forall R l.
Proof. intros H HP HQ. exact (Forall_impl _ (fun x HPQ => H x (proj1 HPQ) (proj2 HPQ)) (Forall_and HP HQ)). Qed.

Lemma Forall2_length {A B} (R : A -> B -> Prop) l1 l2 : Forall2 R l1 l2 -> length l1 = length l2.
Proof. induction 1; cbn; auto. Qed.

Lemma Forall2_map {A B C} (R : B -> C -> Prop) (g : A -> B) (h : A -> C) l :
  Forall (fun x => R (g x) (h x)) l -> Forall2 R (map g l) (map h l).
Proof. induction 1; constructor; auto. Qed.

Lemma Forall2_nth_error {A B} (R : A -> B -> Prop) : forall l1 l2 i,
  Forall2 R l1 l2 ->
  match nth_error l1 i, nth_error l2 i with
  | Some a, Some b => R a b
  | None, None => True
  | _, _ => False
  end.
Proof.
  induction l1 as [|x tl IH]; intros l2 i H; inv H; destruct i; cbn [nth_error]; auto.
  now apply IH.
Qed.

(** [take_z] and [reorder] (what a container shows of its elements, and in
    which order) against [map], [length], [Forall2] and [forallb]; against sums
    in ReorderSum.v *)
Lemma take_z_map {A B} (f : A -> B) : forall l n, take_z n (map f l) = map f (take_z n l).
Proof. induction l as [|x tl IH]; intros n; cbn [take_z map]; [reflexivity|]. destruct (n <=? 0)%Z; [reflexivity|]. now rewrite IH. Qed.

Lemma take_z_all {A} n (l : list A) : (Z.of_nat (length l) <= n)%Z -> take_z n l = l.
Proof.
  revert n. induction l as [|x tl IH]; intros n H; cbn [take_z]; [reflexivity|].
  (* without [lia], which this file does not load *)
  cbn [length] in H. rewrite Nat2Z.inj_succ in H. apply Z.le_succ_l in H.
  rewrite (proj2 (Z.leb_gt n 0)) by exact (Z.le_lt_trans _ _ _ (Nat2Z.is_nonneg _) H).
  rewrite IH; [reflexivity|]. now apply Z.lt_le_pred.
Qed.

Lemma Forall2_take_z {A B} (R : A -> B -> Prop) : forall l1 l2 n,
  Forall2 R l1 l2 -> Forall2 R (take_z n l1) (take_z n l2).
Proof.
  induction l1 as [|x tl IH]; intros l2 n H; inv H; cbn [take_z]; [constructor|].
  destruct (n <=? 0)%Z; constructor; auto.
Qed.

Lemma forallb_take {A} (f : A -> bool) : forall l n, forallb f l = true -> forallb f (take_z n l) = true.
Proof.
  induction l as [|x tl IH]; intros n H; cbn [take_z]; [reflexivity|].
  apply andb_prop in H as [Hx Ht]. destruct (n <=? 0)%Z; cbn [forallb]; [reflexivity|].
  rewrite Hx. now apply IH.
Qed.

Lemma reorder_length {A} (l : list A) order : (length (reorder l order) <= length order)%nat.
Proof.
  induction order as [|i tl IH]; cbn [reorder length]; [apply le_n|].
  destruct (nth_error l i); cbn [length]; [apply le_n_S|apply le_S]; exact IH.
Qed.

Lemma Forall2_reorder {A B} (R : A -> B -> Prop) l1 l2 : Forall2 R l1 l2 ->
  forall order, Forall2 R (reorder l1 order) (reorder l2 order).
Proof.
  intros H. induction order as [|i tl IH]; cbn [reorder]; [constructor|].
  pose proof (Forall2_nth_error R l1 l2 i H) as Hn.
  destruct (nth_error l1 i), (nth_error l2 i); try contradiction; [constructor; auto|auto].
Qed.

Lemma forallb_reorder {A} (f : A -> bool) l order : forallb f l = true -> forallb f (reorder l order) = true.
Proof.
  intros H. induction order as [|i tl IH]; [reflexivity|]. cbn [reorder].
  destruct (nth_error l i) as [x|] eqn:E; [|exact IH]. cbn [forallb]. rewrite IH, andb_true_r.
  apply nth_error_In in E. rewrite forallb_forall in H. auto.
Qed.

(** what a dict shows: all entries, when neither the limit nor the order list is short of them *)
Lemma take_z_sorted_all {A} n (b : bool) (l : list A) so :
  (Z.of_nat (length l) <= n)%Z -> (length so <= length l)%nat ->
  take_z n (if b then reorder l so else l) = if b then reorder l so else l.
Proof.
  intros Hn Hso. apply take_z_all. destruct b; [|exact Hn].
  apply Z.le_trans with (2 := Hn), Nat2Z.inj_le, Nat.le_trans with (2 := Hso), reorder_length.
Qed.

(** The cases of the induction.  [osub None b] is [b] by computation: to use an
    equation below on a value written without [osub], [change] it into that
    form first.  [knat k] is the number under which the printers pass the kind
    of a sequence around. *)
Definition osub (sub : option clsinfo) (b : pyval) : pyval :=
  match sub with Some c => VSub c b | None => b end.
Definition vseq (k : seqkind) (l : list pyval) : pyval :=
  match k with KList => VList l | KTuple => VTuple l | KSet => VSet l end.
Definition vstr (bytes : bool) (s : str) : pyval := if bytes then VBytes s else VStr s.
Definition knat (k : seqkind) : nat := match k with KList => 0 | KTuple => 1 | KSet => 2 end.

(** pretty_call_alt prints a sole positional list / dict / tuple argument at the caller's own depth *)
Definition hugged (args : list pyval) (kw : list (str * pyval)) : bool :=
  match kw, args with [], [a] => huggable a | _, _ => false end.

Lemma hugged_kw args kw : hugged args kw = true -> kw = [].
Proof. unfold hugged. now destruct kw. Qed.

Inductive sfloat := SInf | SNegInf | SNan.
Definition vspecial (f : sfloat) : pyval := match f with SInf => VInf | SNegInf => VNegInf | SNan => VNan end.
Definition special_name (f : sfloat) : str := match f with SInf => s_inf | SNegInf => s_neginf | SNan => s_nan end.

(** The first seven cases are the built-ins [osub] covers; a proof addresses them as [1-7:]. *)
Section Ind.
Variable P : pyval -> Prop.
Hypothesis Hint : forall sub z, P (osub sub (VInt z)).
Hypothesis Hfloat : forall sub r, P (osub sub (VFloat r)).
Hypothesis Hspecial : forall sub f, P (osub sub (vspecial f)).
Hypothesis Hstr : forall sub bytes s, P (osub sub (vstr bytes s)).
Hypothesis Hseq : forall sub k l, Forall P l -> P (osub sub (vseq k l)).
Hypothesis Hfrozen : forall sub l, Forall P l -> P (osub sub (VFrozenset l)).
Hypothesis Hdict : forall sub kvs so, Forall (fun kv => P (fst kv) /\ P (snd kv)) kvs -> P (osub sub (VDict kvs so)).
Hypothesis Hbool : forall b, P (VBool b).
Hypothesis Hnone : P VNone.
Hypothesis Hellipsis : P VEllipsis.
Hypothesis Hbadsub : forall c b, bkind_of b = None -> P (VSub c b).
Hypothesis Hcommented : forall x c, P x -> P (VCommented x c).
Hypothesis Htrailing : forall x c, P x -> P (VTrailing x c).
Hypothesis Hcall : forall f args kw, Forall P args -> Forall (fun kv => P (snd kv)) kw -> P (VCall f args kw).
Hypothesis Hpath : forall c s, P (VPath c s).
Hypothesis Hrepr : forall r, P (VRepr r).

Fixpoint pyval_ind' (v : pyval) : P v.
Proof.
  assert (L : forall l, Forall P l).
  { fix IHl 1. intros [|x tl]; constructor; [apply pyval_ind'|apply IHl]. }
  assert (D : forall kvs : list (pyval * pyval), Forall (fun kv => P (fst kv) /\ P (snd kv)) kvs).
  { fix IHl 1. intros [|[k x] tl]; constructor; [split; apply pyval_ind'|apply IHl]. }
  assert (K : forall kw : list (str * pyval), Forall (fun kv => P (snd kv)) kw).
  { fix IHl 1. intros [|[k x] tl]; constructor; [apply pyval_ind'|apply IHl]. }
  assert (B : forall sub b, bkind_of b <> None -> P (osub sub b)).
  { intros sub b Hb. destruct b; try (destruct Hb; reflexivity).
    - apply Hint. - apply Hfloat. - apply (Hspecial sub SInf). - apply (Hspecial sub SNegInf). - apply (Hspecial sub SNan).
    - apply (Hstr sub false). - apply (Hstr sub true).
    - apply (Hseq sub KList), L. - apply (Hseq sub KTuple), L. - apply (Hseq sub KSet), L.
    - apply Hfrozen, L. - apply Hdict, D. }
  destruct v.
  all: try (apply (B None); discriminate).
  - apply Hbool. - apply Hnone. - apply Hellipsis.
  - destruct (bkind_of v) eqn:E; [apply (B (Some c)); congruence|apply Hbadsub, E].
  - apply Hcommented, pyval_ind'. - apply Htrailing, pyval_ind'.
  - apply Hcall; [apply L|apply K].
  - apply Hpath. - apply Hrepr.
Qed.
End Ind.

(** [finish], [elems_], [key_doc_], [triples_] are the local definitions of
    [pretty_pv] (Printers.v) under names of their own; Section [Spec] below does
    the same for [expr_of] (PyExpr.v). *)
Section Printer.
Variable sp lb : N -> bool.
Notation pretty_pv := (pretty_pv sp lb).

Definition finish (cm : option str) (d : doc) : doc :=
  match truthy cm with Some c => Annot (AComment c) d | None => d end.
Definition elems_ (c : pctx) (l : list pyval) : list doc :=
  match l with
  | [x] => [pretty_pv x (with_strategy (nested_call c) MPlain) None None]
  | _ => map (fun x => pretty_pv x (nested_hang c) None None) l
  end.
Definition key_doc_ (c : pctx) (k : pyval) : doc :=
  match k with
  | VStr s => str_doc (with_strategy c MParens) false s None false
  | VBytes s => str_doc (with_strategy c MParens) true s None false
  | VSub w (VStr s) => str_doc (with_strategy c MParens) false s (Some w) false
  | VSub w (VBytes s) => str_doc (with_strategy c MParens) true s (Some w) false
  | _ => pretty_pv k (nested_call c) None None
  end.
Definition triples_ (c : pctx) (kvs : list (pyval * pyval)) : list (doc * doc * (unit -> doc)) :=
  map (fun '(k, x) => (key_doc_ c k,
                       pretty_pv x (with_strategy (nested_call c) MIndented) None None,
                       fun _ : unit => pretty_pv x (with_strategy (nested_call c) MPlain) None None)) kvs.

(** the elements are one [map] of [pretty_pv]: a sole element under the PLAIN strategy, several under HANG *)
Definition elems_mode (l : list pyval) : mls := match l with [_] => MPlain | _ => MHang end.
Lemma elems_eq c l :
  elems_ c l = map (fun x => pretty_pv x (with_strategy (nested_call c) (elems_mode l)) None None) l.
Proof. destruct l as [|x [|y tl]]; reflexivity. Qed.

(** a key is printed by [pretty_pv] too: a string with the PARENS strategy, any other as a nested call *)
Definition str_key (k : pyval) : bool :=
  match k with VStr _ | VBytes _ | VSub _ (VStr _) | VSub _ (VBytes _) => true | _ => false end.
Definition key_ctx (c : pctx) (k : pyval) : pctx := if str_key k then with_strategy c MParens else nested_call c.
Lemma key_doc_eq c k : key_doc_ c k = pretty_pv k (key_ctx c k) None None.
Proof. destruct k; try reflexivity. destruct k; reflexivity. Qed.

Variables (ctx : pctx) (cm tr : option str).

Lemma pretty_int sub z :
  pretty_pv (osub sub (VInt z)) ctx cm tr = finish cm (num_d sp lb ctx T_NUMBER_INT n_int (repr_int z) sub).
Proof. destruct sub; reflexivity. Qed.
Lemma pretty_float sub r :
  pretty_pv (osub sub (VFloat r)) ctx cm tr = finish cm (num_d sp lb ctx T_NUMBER_FLOAT n_float r sub).
Proof. destruct sub; reflexivity. Qed.
Lemma pretty_special sub f :
  pretty_pv (osub sub (vspecial f)) ctx cm tr = finish cm (special_float_d sp lb ctx (special_name f) sub).
Proof. destruct sub, f; reflexivity. Qed.
Lemma pretty_str sub bytes s :
  pretty_pv (osub sub (vstr bytes s)) ctx cm tr = finish cm (str_doc ctx bytes s sub false).
Proof. destruct sub, bytes; reflexivity. Qed.
Lemma pretty_seq sub k l :
  pretty_pv (osub sub (vseq k l)) ctx cm tr
  = finish cm (seq_d sp lb ctx (knat k) (length l) sub (truthy tr) (fun _ => elems_ ctx l)).
Proof. destruct sub, k; reflexivity. Qed.
Lemma pretty_frozen sub l :
  pretty_pv (osub sub (VFrozenset l)) ctx cm tr
  = finish cm (frozen_d sp lb ctx (length l) sub
                 (fun _ => seq_d sp lb ctx 0 (length l) None None (fun _ => elems_ ctx l))).
Proof. destruct sub; reflexivity. Qed.
Lemma pretty_dict sub kvs so :
  pretty_pv (osub sub (VDict kvs so)) ctx cm tr = finish cm (dict_d sp lb ctx sub (truthy tr) so (fun _ => triples_ ctx kvs)).
Proof. destruct sub; reflexivity. Qed.
Lemma pretty_badsub c b : bkind_of b = None -> pretty_pv (VSub c b) ctx cm tr = finish cm Nil.
Proof. destruct b; (discriminate || reflexivity). Qed.
Lemma pretty_bool b : pretty_pv (VBool b) ctx cm tr = finish cm (tok T_KEYWORD_CONSTANT (if b then s_True else s_False)).
Proof. reflexivity. Qed.
Lemma pretty_none : pretty_pv VNone ctx cm tr = finish cm (tok T_KEYWORD_CONSTANT s_None).
Proof. reflexivity. Qed.
Lemma pretty_ellipsis : pretty_pv VEllipsis ctx cm tr = finish cm ELLIPSIS.
Proof. reflexivity. Qed.
Lemma pretty_commented x c : pretty_pv (VCommented x c) ctx cm tr = pretty_pv x ctx (Some (joinc cm c)) (truthy tr).
Proof. reflexivity. Qed.
Lemma pretty_trailing x c : pretty_pv (VTrailing x c) ctx cm tr = pretty_pv x ctx cm (Some (joinc (truthy tr) c)).
Proof. reflexivity. Qed.
Lemma pretty_path c s :
  pretty_pv (VPath c s) ctx cm tr
  = finish cm (build_fncall sp lb ctx (general_identifier c) [str_doc ctx false s None true] [] false).
Proof. reflexivity. Qed.
Lemma pretty_repr r : pretty_pv (VRepr r) ctx cm tr = finish cm (Text r).
Proof. reflexivity. Qed.
Lemma pretty_call f args kw :
  pretty_pv (VCall f args kw) ctx cm tr
  = finish cm (call_alt_d sp lb ctx f (hugged args kw)
                 (fun _ => map (fun a => pretty_pv a ctx None None) args)
                 (fun _ => map (fun a => pretty_pv a (nested_hang ctx) None None) args)
                 (fun _ => map (fun '(k, x) => (k, pretty_pv x (nested_hang ctx) None None)) kw)).
Proof. reflexivity. Qed.

End Printer.

(** The printers of calls, sequences and dicts with their case analysis
    resolved: what [build_fncall] returns is one of three documents; [seq_d]
    and [dict_d] are their bodies with the bindings spelled out, the subclass
    wrapper ([sub_wrap]), the notice of truncation ([notice]) and the literal
    for the elements shown ([seq_lit], [dict_lit]) under names. *)
Section Forms.
Variable sp lb : N -> bool.
Variable ctx : pctx.

Definition call_body (f : doc) (docs : list doc) : doc :=
  let '(parts, hc) := fncall_parts sp lb docs false in
  let body := Cat [f; LPAREN; Nest (c_indent ctx) (Cat [SOFTLINE; Cat parts]); SOFTLINE; RPAREN] in
  if hc then AlwaysBreak body else Group body.

Inductive fncall_form (f : doc) (args : list doc) (kws : list (str * doc)) : doc -> Prop :=
| FF_noargs : args = [] -> kws = [] -> fncall_form f args kws (Cat [f; LPAREN; RPAREN])
| FF_hug a : args = [a] -> kws = [] -> fncall_form f args kws (Group (Cat [f; LPAREN; a; RPAREN]))
| FF_call : fncall_form f args kws (call_body f (args ++ map kwarg_doc kws)).

Lemma build_fncall_form f args kws hug : fncall_form f args kws (build_fncall sp lb ctx f args kws hug).
Proof.
  unfold build_fncall. destruct kws as [|kv kws]; cbn [map].
  - destruct args as [|a [|b args]]; [now apply FF_noargs| |rewrite andb_false_r; apply FF_call].
    destruct hug, (is_commented a); try apply FF_call. now apply FF_hug.
  - destruct args; rewrite ?andb_false_r; apply FF_call.
Qed.

(** a keyword argument carries the comment of its value *)
Lemma kwarg_doc_eq k d :
  kwarg_doc (k, d) = match is_commented d with
                     | Some c => Annot (AComment c) (Cat [tok T_NAME_VARIABLE k; ASSIGN_OP; uncomment d])
                     | None => Cat [tok T_NAME_VARIABLE k; ASSIGN_OP; d]
                     end.
Proof. destruct d; try reflexivity. destruct a; reflexivity. Qed.

Definition lbr (kind : nat) : doc := match kind with 0%nat => LBRACKET | 1%nat => LPAREN | _ => LBRACE end.
Definition rbr (kind : nat) : doc := match kind with 0%nat => RBRACKET | 1%nat => RPAREN | _ => RBRACE end.
Definition seq_ctor (kind : nat) (sub : option clsinfo) : clsinfo :=
  match sub with Some c => c | None => cls_of (match kind with 0%nat => n_list | 1%nat => n_tuple | _ => n_set end) end.

(** a built-in is printed bare, an instance of a subclass as its class called on that *)
Definition sub_wrap (hug : bool) (sub : option clsinfo) (d : doc) : doc :=
  match sub with None => d | Some c => build_fncall sp lb ctx (general_identifier c) [d] [] hug end.

(** the comment after the elements shown: how many were left out, then the trailing comment *)
Definition notice (len : nat) (tr : option str) : option str :=
  if (c_maxlen ctx <? Z.of_nat len)%Z
  then Some (join_comments (trunc_comment (Z.of_nat len - c_maxlen ctx)) tr) else tr.

Definition seq_shown {A} (len : nat) (els : list A) : list A :=
  match len with 1%nat => els | _ => take_z (c_maxlen ctx) els end.
Definition seq_lit (kind len : nat) (tr : option str) (els : list doc) : doc :=
  match notice len tr with
  | Some t => sequence_of_docs sp lb ctx (lbr kind) (seq_shown len els ++ [commentdoc sp lb t]) (rbr kind) false true
  | None => sequence_of_docs sp lb ctx (lbr kind) (seq_shown len els) (rbr kind) (Nat.eqb kind 1 && Nat.eqb len 1) false
  end.

Lemma seq_d_eq kind len sub tr els :
  seq_d sp lb ctx kind len sub tr els =
  match len with
  | O => if negb (is_some sub) && Nat.ltb kind 2 then Cat [lbr kind; rbr kind]
         else call_noargs sp lb ctx (seq_ctor kind sub)
  | _ => if depth_is0 ctx
         then if Nat.ltb kind 2 then sub_wrap true sub (Cat [lbr kind; ELLIPSIS; rbr kind])
              else call_ellipsis sp lb ctx (seq_ctor kind sub)
         else sub_wrap true sub (seq_lit kind len tr (els tt))
  end.
Proof.
  unfold seq_d, seq_lit, notice.
  replace (match kind with 0%nat => _ | S _ => _ end) with (lbr kind, rbr kind) by now destruct kind as [|[|k]].
  destruct len; [reflexivity|].
  destruct (if (_ <? _)%Z then _ else _), sub; reflexivity.
Qed.

Lemma dict_parts_cons k x xp tl :
  fst (dict_parts sp lb ctx ((k, x, xp) :: tl))
  = fst (dict_part sp lb ctx (match tl with [] => true | _ => false end) k x xp) :: fst (dict_parts sp lb ctx tl).
Proof. cbn [dict_parts]. now destruct (dict_part _ _ _ _ _ _ _), (dict_parts _ _ _ tl). Qed.

Definition dict_shown {A} (so : list nat) (all : list A) : list A :=
  take_z (c_maxlen ctx) (if c_sort ctx then reorder all so else all).
Definition dict_items (tr : option str) (so : list nat) (all : list (doc * doc * (unit -> doc))) : list doc :=
  fst (dict_parts sp lb ctx (dict_shown so all)) ++
  match notice (length all) tr with Some t => [Cat [HardLine; commentdoc sp lb t]] | None => [] end.
Definition dict_lit (tr : option str) (so : list nat) (all : list (doc * doc * (unit -> doc))) : doc :=
  let body := bracket ctx LBRACE (Cat (dict_items tr so all)) RBRACE in
  if (dict_break_threshold <? Z.of_nat (length (dict_shown so all)))%Z ||
     (snd (dict_parts sp lb ctx (dict_shown so all)) || is_some (notice (length all) tr))
  then AlwaysBreak body else Group body.

Lemma dict_d_eq sub tr so triples :
  dict_d sp lb ctx sub tr so triples =
  if depth_is0 ctx then sub_wrap true sub (Cat [LBRACE; ELLIPSIS; RBRACE])
  else match sub, dict_items tr so (triples tt) with
       | Some c, [] => call_noargs sp lb ctx c
       | _, _ => sub_wrap true sub (dict_lit tr so (triples tt))
       end.
Proof.
  unfold dict_d.
  unfold dict_lit, dict_items. fold (notice (length (triples tt)) tr).
  destruct (dict_parts sp lb ctx _) as [parts0 hc0], (notice _ tr); cbn [fst snd]; rewrite ?app_nil_r; destruct sub; reflexivity.
Qed.

End Forms.

Section Spec.
Variable c : ectx.

Definition enum (lit : expr) (base : str) (sub : option clsinfo) : expr :=
  if e_is0 c then placeholder (match sub with Some w => cn_name w | None => base end)
  else match sub with None => lit | Some w => ECall (cn_name w) [lit] [] end.
Definition especial (nm : str) (sub : option clsinfo) : expr :=
  let name := match sub with Some w => cn_name w | None => n_float end in
  if e_is0 c then placeholder name else ecall c name [estr (e_nested c) false nm None] [].
Definition eelems (l : list pyval) : list expr := map (fun x => expr_of (e_nested c) x false) l.
Definition efrozen (l : list pyval) (sub : option clsinfo) : expr :=
  let name := match sub with Some w => cn_name w | None => n_frozenset end in
  match l with
  | [] => ecall c name [] []
  | _ => ecall c name [eseq c KList (length l) None false (eelems l)] []
  end.
Definition key_expr_ (k : pyval) : expr :=
  match k with
  | VStr s => estr c false s None
  | VBytes s => estr c true s None
  | VSub w (VStr s) => estr c false s (Some w)
  | VSub w (VBytes s) => estr c true s (Some w)
  | _ => expr_of (e_nested c) k false
  end.
Lemma key_expr_eq k : key_expr_ k = expr_of (if str_key k then c else e_nested c) k false.
Proof. destruct k; try reflexivity. destruct k; reflexivity. Qed.
Definition epairs (kvs : list (pyval * pyval)) : list (expr * expr) :=
  map (fun '(k, x) => (key_expr_ k, expr_of (e_nested c) x false)) kvs.

Variable tr : bool.
Lemma expr_int sub z : expr_of c (osub sub (VInt z)) tr = enum (EInt z) n_int sub.
Proof. destruct sub; reflexivity. Qed.
Lemma expr_float sub r : expr_of c (osub sub (VFloat r)) tr = enum (EFloat r) n_float sub.
Proof. destruct sub; reflexivity. Qed.
Lemma expr_special sub f : expr_of c (osub sub (vspecial f)) tr = especial (special_name f) sub.
Proof. destruct sub, f; reflexivity. Qed.
Lemma expr_str sub bytes s : expr_of c (osub sub (vstr bytes s)) tr = estr c bytes s sub.
Proof. destruct sub, bytes; reflexivity. Qed.
Lemma expr_seq sub k l : expr_of c (osub sub (vseq k l)) tr = eseq c k (length l) sub tr (eelems l).
Proof. destruct sub, k; reflexivity. Qed.
Lemma expr_frozen sub l : expr_of c (osub sub (VFrozenset l)) tr = efrozen l sub.
Proof. destruct sub; reflexivity. Qed.
Lemma expr_dict sub kvs so : expr_of c (osub sub (VDict kvs so)) tr = edict c sub so (epairs kvs) tr.
Proof. destruct sub; reflexivity. Qed.
Lemma expr_badsub w b : bkind_of b = None -> expr_of c (VSub w b) tr = ERepr [].
Proof. destruct b; (discriminate || reflexivity). Qed.
Lemma expr_bool b : expr_of c (VBool b) tr = EName (if b then s_True else s_False).
Proof. reflexivity. Qed.
Lemma expr_none : expr_of c VNone tr = EName s_None.
Proof. reflexivity. Qed.
Lemma expr_ellipsis : expr_of c VEllipsis tr = EEllipsis.
Proof. reflexivity. Qed.
Lemma expr_commented x t : expr_of c (VCommented x t) tr = expr_of c x tr.
Proof. reflexivity. Qed.
Lemma expr_trailing x t : expr_of c (VTrailing x t) tr = expr_of c x (tr || nonempty t).
Proof. reflexivity. Qed.
Lemma expr_path w s : expr_of c (VPath w s) tr = ECall (cn_name w) [estr c false s None] [].
Proof. reflexivity. Qed.
Lemma expr_repr r : expr_of c (VRepr r) tr = ERepr r.
Proof. reflexivity. Qed.
Lemma expr_call f args kw :
  expr_of c (VCall f args kw) tr
  = let c' := if hugged args kw then c else e_nested c in
    ecall c (cn_name f) (map (fun a => expr_of c' a false) args) (map (fun '(k, x) => (k, expr_of c' x false)) kw).
Proof.
  cbn [expr_of]. unfold ecall, hugged.
  destruct kw; [|reflexivity]. destruct args as [|a [|a2 ar]]; try reflexivity. now destruct (huggable a).
Qed.

End Spec.
