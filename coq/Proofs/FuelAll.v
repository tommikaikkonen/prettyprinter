(** C12 (layout engine), full algebra: fill, annotations, general flat_choice,
    lazily normalised flat_choice copies, align, and contextual string
    documents whose evaluations are bounded in size: the main loop ends within
    M + 1 iterations and every look-ahead within M + 1, M = total weight of
    the pending stack.  Normalisation never increases the weight. *)
From Coq Require Import Lia.
From PP Require Import Doc Normalize Layout DocInd NormEq ReorderSum.

Section W.
(** bound on the weight of what the string printer's evaluator can return *)
Variable cb : strp -> nat.

(** The weights are what makes every iteration of either loop strictly
    decrease the weight of the stack: a flat_choice weighs 1 + the heavier
    branch, since one branch is followed; an annotation 2 + its body, which
    goes back on the stack together with the pop (weight 1); an align 2 + its
    body, replaced by the normal form of a nest (1 + body, [norm_wt]); a
    fill 1 + (1 + item) per item: two items go on the stack beside a fill of
    the others, whose own 1 the items' extra 1 pays for, and the look-ahead
    over [Cat [first; ws]] weighs 1 + both; a contextual string document
    1 + the bound on what it evaluates to. *)
Fixpoint wt (d : doc) : nat :=
  match d with
  | Cat l => S ((fix sum (l : list doc) : nat := match l with [] => O | x :: tl => (wt x + sum tl)%nat end) l)
  | Fill l => S ((fix sum (l : list doc) : nat := match l with [] => O | x :: tl => (S (wt x) + sum tl)%nat end) l)
  | Nest _ x | Group x | AlwaysBreak x => S (wt x)
  | Annot _ x | Align x => S (S (wt x))
  | FlatChoice b f | FCN b f => S (Nat.max (wt b) (wt f))
  | CtxS p => S (cb p)
  | _ => 1%nat
  end.

Notation wtl := (tsum wt).
Notation wtf := (tsum (fun x => S (wt x))).

Lemma wt_cat l : wt (Cat l) = S (wtl l).
Proof. reflexivity. Qed.
Lemma wt_fill l : wt (Fill l) = S (wtf l).
Proof. reflexivity. Qed.
Lemma wt_ab x : wt (AlwaysBreak x) = S (wt x).
Proof. reflexivity. Qed.
Lemma wt_pos d : (1 <= wt d)%nat.
Proof. destruct d; apply le_n_S, Nat.le_0_l. Qed.

Lemma b2n_orb a b : (Nat.b2n (a || b) <= Nat.b2n a + Nat.b2n b)%nat.
Proof. destruct a, b; repeat constructor. Qed.

Lemma contrib_wt nd : (wtl (fst (contrib nd)) + Nat.b2n (snd (contrib nd)) <= wt nd)%nat.
Proof.
  destruct nd; cbn [contrib fst snd Nat.b2n]; try (cbn [tsum fold_right wt]; lia).
  rewrite wt_cat. lia.
Qed.

Lemma cat_go_wt : forall l, Forall (fun d => (wt (normalize_doc d) <= wt d)%nat) l ->
  (wtl (cat_items l) + Nat.b2n (cat_prop l) <= wtl l)%nat.
Proof.
  induction 1 as [|x tl Hx Htl IH]; [reflexivity|].
  cbn [cat_items cat_prop flat_map existsb]. fold (cat_items tl) (cat_prop tl).
  rewrite tsum_app, tsum_cons. pose proof (contrib_wt (normalize_doc x)).
  pose proof (b2n_orb (snd (contrib (normalize_doc x))) (cat_prop tl)). lia.
Qed.

Lemma fill_contrib_wt x : (wtf (fst (fill_contrib x)) + Nat.b2n (snd (fill_contrib x)) <= S (wt x))%nat.
Proof.
  destruct x; cbn [fill_contrib fst snd Nat.b2n tsum fold_right wt]; try lia.
  destruct (is_nil x); cbn [tsum fold_right]; lia.
Qed.

Lemma fill_go_wt : forall l, (wtf (fill_items l) + Nat.b2n (fill_prop l) <= wtf l)%nat.
Proof.
  induction l as [|x tl IH]; [reflexivity|].
  cbn [fill_items fill_prop flat_map existsb]. fold (fill_items tl) (fill_prop tl).
  rewrite tsum_app, tsum_cons. pose proof (fill_contrib_wt x).
  pose proof (b2n_orb (snd (fill_contrib x)) (fill_prop tl)). lia.
Qed.

Theorem norm_wt : forall d, (wt (normalize_doc d) <= wt d)%nat.
Proof.
  induction d using doc_ind'; try apply le_n.
  - destruct s; apply le_n.
  - rewrite normalize_cat, wt_cat. pose proof (cat_go_wt l H) as Hg. unfold cat_finish.
    destruct (cat_items l) as [|x [|y tl]].
    + cbn. lia.
    + cbn [tsum fold_right] in Hg. destruct (cat_prop l); cbn [wt Nat.b2n] in *; lia.
    + destruct (cat_prop l); cbn [Nat.b2n] in Hg; rewrite ?wt_ab, wt_cat; lia.
  (* nest, group, always_break: the wrapper around the normalised child, or that with an
     always_break hoisted or dropped, which by cases is no heavier *)
  - apply Nat.le_trans with (wt (Nest i (normalize_doc d))); [|now apply le_n_S].
    cbn [normalize_doc]. destruct (normalize_doc d); repeat constructor.
  - apply Nat.le_trans with (wt (Group (normalize_doc d))); [|now apply le_n_S].
    cbn [normalize_doc]. destruct (normalize_doc d); repeat constructor.
  - apply Nat.le_trans with (wt (AlwaysBreak (normalize_doc d))); [|now apply le_n_S].
    cbn [normalize_doc]. destruct (normalize_doc d); repeat constructor.
  - rewrite normalize_fill, wt_fill. pose proof (fill_go_wt l) as Hg. unfold fill_finish.
    destruct (fill_items l) as [|x tl]; [cbn; lia|].
    destruct (fill_prop l); cbn [Nat.b2n] in Hg; rewrite ?wt_ab, wt_fill; lia.
  - (* annotate: as nest *)
    apply Nat.le_trans with (wt (Annot a (normalize_doc d))); [|now apply le_n_S, le_n_S].
    cbn [normalize_doc]. destruct (normalize_doc d); repeat constructor.
Qed.

Definition mwt (s : list triple) : nat := fold_right (fun t a => (wt (snd t) + a)%nat) O s.

Lemma mwt_cons i m d rest : mwt ((i, m, d) :: rest) = (wt d + mwt rest)%nat.
Proof. reflexivity. Qed.
Lemma mwt_push_all i m l rest : mwt (push_all i m l rest) = (wtl l + mwt rest)%nat.
Proof.
  unfold push_all. induction l as [|x tl IH]; [reflexivity|].
  cbn [map app]. rewrite mwt_cons, IH, tsum_cons. apply Nat.add_assoc.
Qed.
Lemma wtl_le_wtf l : (wtl l <= wtf l)%nat.
Proof. induction l as [|x tl IH]; [apply le_n|]. rewrite !tsum_cons. lia. Qed.

Variable evs : strp -> Z -> Z -> Z -> Z -> doc.
Hypothesis evs_bounded : forall p i c w rw, (wt (evs p i c w rw) <= cb p)%nat.

Lemma align_wt k x : (wt (normalize_doc (Nest k x)) < wt (Align x))%nat.
Proof. pose proof (norm_wt (Nest k x)). cbn [wt] in *. lia. Qed.
Lemma ctxs_wt p i c w rw : (wt (normalize_doc (evs p i c w rw)) < wt (CtxS p))%nat.
Proof. pose proof (norm_wt (evs p i c w rw)). pose proof (evs_bounded p i c w rw). cbn [wt]. lia. Qed.

(* both stacks' weights as sums over their entries, compared by [lia] *)
Ltac fin := rewrite ?mwt_cons, ?mwt_push_all, ?wt_cat, ?wt_fill; cbn [wt mwt tsum fold_right]; try lia.

Lemma fits_step_dec smart w rw mnl maxw cl stk :
  match fits_step evs smart w rw mnl maxw cl stk with
  | FCont _ stk' => (mwt stk' < mwt stk)%nat
  | _ => True
  end.
Proof.
  unfold fits_step. destruct (cl <? 0)%Z; [exact I|].
  destruct stk as [|[[i m] d] rest]; [exact I|].
  destruct d as [|s|l|j x|x|x|b f|b f|l|a x| |x|p|a]; try exact I; try (fin; fail).
  - (* FlatChoice *) fin. destruct m; lia.
  - (* FCN: the branch is normalised on access *) fin. pose proof (norm_wt b). destruct m; lia.
  - (* Fill: read as a concat *) fin. pose proof (wtl_le_wtf l). lia.
  - (* HardLine *) destruct smart; [|exact I]. destruct (i >? mnl)%Z; [|exact I]. fin.
  - (* Align *) rewrite !mwt_cons. apply Nat.add_lt_mono_r, align_wt.
  - (* CtxS *) rewrite !mwt_cons. apply Nat.add_lt_mono_r, ctxs_wt.
Qed.

Theorem fits_total_all : forall fuel smart w rw mnl maxw cl stk,
  (mwt stk < fuel)%nat -> fits_loop evs fuel smart w rw mnl maxw cl stk <> None.
Proof.
  induction fuel as [|f IH]; intros smart w rw mnl maxw cl stk Hf; [lia|].
  cbn [fits_loop]. pose proof (fits_step_dec smart w rw mnl maxw cl stk) as Hd.
  destruct (fits_step evs smart w rw mnl maxw cl stk) as [| |cl' stk']; try discriminate.
  apply IH. lia.
Qed.

Lemma layout_step_dec ff smart w rw st :
  (mwt (ls_stk st) <= ff)%nat ->
  match layout_step evs ff smart w rw st with
  | LDone _ => True
  | LFuel => False
  | LCont st' => (mwt (ls_stk st') < mwt (ls_stk st))%nat
  end.
Proof.
  intros Hff. unfold layout_step. destruct (ls_stk st) as [|[[i m] d] rest]; [exact I|].
  rewrite mwt_cons in Hff.
  destruct d as [|s|l|j x|x|x|b f|b f|l|a x| |x|p|a]; cbn [ls_stk]; try (fin; fail).
  - (* group: the look-ahead's stack weighs less than the pending one *)
    cbn [wt] in Hff. destruct (fits _ _ _ _ _ _ _ _) as [[|]|] eqn:E; cbn [ls_stk]; [fin|fin|].
    apply fits_total_all in E; [exact E|fin].
  - (* FlatChoice *) fin. destruct m; lia.
  - (* FCN *) fin. pose proof (norm_wt b). destruct m; lia.
  - (* fill: so does the first item, and the first two as a concat *)
    rewrite wt_fill in Hff. destruct l as [|first tl]; [cbn [ls_stk]; fin|]. rewrite tsum_cons in Hff.
    destruct (fits _ _ _ _ _ _ _ [(i, MFlat, first)]) as [r|] eqn:E; [|apply fits_total_all in E; [exact E|fin]].
    destruct tl as [|ws [|y tl]]; [cbn [ls_stk]; fin..|]. rewrite !tsum_cons in Hff.
    destruct (fits _ _ _ _ _ _ _ [(i, MFlat, Cat _)]) as [r2|] eqn:E2; [cbn [ls_stk]; fin|].
    apply fits_total_all in E2; [exact E2|fin].
  - (* Align *) rewrite !mwt_cons. apply Nat.add_lt_mono_r, align_wt.
  - (* CtxS *) rewrite !mwt_cons. apply Nat.add_lt_mono_r, ctxs_wt.
Qed.

Theorem layout_total_all : forall fuel ff smart w rw st,
  (mwt (ls_stk st) < fuel)%nat -> (mwt (ls_stk st) <= ff)%nat ->
  layout_loop evs fuel ff smart w rw st <> None.
Proof.
  induction fuel as [|f IH]; intros ff smart w rw st Hf Hff; [lia|].
  cbn [layout_loop]. pose proof (layout_step_dec ff smart w rw st Hff) as H.
  destruct (layout_step evs ff smart w rw st) as [out|st'|]; [discriminate| |contradiction].
  apply IH; lia.
Qed.

Lemma best_layout_fuel fuel ff smart w rw d :
  (wt d < fuel)%nat -> (wt d <= ff)%nat -> best_layout evs fuel ff smart w rw d <> None.
Proof.
  intros Hf Hff. unfold best_layout, init_state. pose proof (norm_wt d).
  apply layout_total_all; cbn [ls_stk mwt fold_right snd]; lia.
Qed.

Corollary best_layout_total smart w rw d :
  best_layout evs (S (wt d)) (wt d) smart w rw d <> None.
Proof. apply best_layout_fuel; [apply Nat.lt_succ_diag_r|apply le_n]. Qed.

End W.
