(** C07: the datetime-family printers reconstruct the value they print. *)
From Coq Require Import Lia.
From PP Require Import Stdlib.

Definition tv (l : list (string * Z)) : Z := fold_right (fun kv acc => weight (fst kv) * snd kv + acc) 0 l.
Definition asint (l : list (string * Z)) : list (string * dval) := map (fun kv => (fst kv, DInt (snd kv))) l.

Lemma tv_filter l : tv (filter (fun kv => negb (snd kv =? 0)) l) = tv l.
Proof.
  induction l as [|[k v] tl IH]; [reflexivity|]. cbn [filter snd].
  destruct (Z.eqb_spec v 0) as [->|_]; cbn [negb]; change (tv ((k, ?x) :: ?t)) with (weight k * x + tv t); lia.
Qed.

Lemma value_asint l : timedelta_value (asint l) = tv l.
Proof. induction l as [|[k v] tl IH]; [reflexivity|]. cbn. now f_equal. Qed.

(** the last step of pretty_timedelta: a leading "days" entry of a year or
    more is shown as  years * 365 + days *)
Definition split_years (shown : list (string * Z)) : list (string * dval) :=
  match shown with
  | (k, d) :: tl =>
      if String.eqb k "days" then
        if d / 365 =? 0 then (k, DInt d) :: asint tl else (k, DYears (d / 365) (d mod 365)) :: asint tl
      else asint shown
  | [] => []
  end.

Lemma value_split_years shown : timedelta_value (split_years shown) = tv shown.
Proof.
  destruct shown as [|[k d] tl]; [reflexivity|]. unfold split_years.
  destruct (String.eqb k "days"); [|apply value_asint].
  destruct (d / 365 =? 0); cbn [timedelta_value tv fold_right fst snd dval_value];
    fold (timedelta_value (asint tl)); rewrite value_asint; [reflexivity|].
  now rewrite (Z.mul_comm (d / 365)), <- Z_div_mod_eq_full.
Qed.

(** Dropping zero entries and splitting the days change nothing of the sum;
    the sum of all six entries is the delta by three Euclidean divisions.
    No range condition is needed. *)
Theorem timedelta_value_kwargs (d s u : Z) :
  timedelta_value (timedelta_kwargs d s u) = (d * 86400 + s) * 1000000 + u.
Proof.
  (* timedelta_kwargs is split_years of the non-zero attributes, by computation *)
  etransitivity; [exact (value_split_years _)|].
  rewrite tv_filter. lazy [tv fold_right fst snd weight String.eqb Ascii.eqb Bool.eqb].
  pose proof (Z_div_mod_eq_full s 60). pose proof (Z_div_mod_eq_full (s / 60) 60).
  pose proof (Z_div_mod_eq_full u 1000). lia.
Qed.

(** datetime / time: a bounded format: once each droppable field is split into 0 / positive /
    negative, every [_ =? 0] test of the printer computes, and each of the
    five suffix lengths (times tzinfo, fold) is checked by evaluation.  The
    split is done on the folded goal: on the unfolded one every [destruct]
    walks the nine key strings. *)
Theorem datetime_roundtrip (y mo d h mi s us : Z) (has_tz fold : bool) :
  1 <= d ->
  datetime_fields (datetime_out y mo d h mi s us has_tz fold) = ([y; mo; d; h; mi; s; us], has_tz, fold).
Proof.
  intros Hd. destruct d; try now elim Hd.
  destruct us; [destruct s; [destruct mi; [destruct h|..]|..]|..]; destruct has_tz, fold; reflexivity.
Qed.

Theorem time_roundtrip (h mi s us : Z) (has_tz : bool) (fold : Z) :
  time_fields (time_out h mi s us has_tz fold) = ([h; mi; s; us], has_tz, fold).
Proof.
  destruct us; [destruct s; [destruct mi; [destruct h|..]|..]|..]; destruct fold, has_tz; reflexivity.
Qed.
