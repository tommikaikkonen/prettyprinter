(** C02: whatever the page, the ribbon, the indentation and the column, the
    document the string printer evaluates to consists of literal pieces whose
    concatenation is the value - never zero pieces, never an empty piece of a
    non-empty value, same quote and prefix on every piece. *)
From Coq Require Import Lia.
From PP Require Import Doc PyStr Consts Printers StrSplit StrTotal.

Section StrPieces.
Variable printable : N -> bool.
Variable is_space_u : N -> bool.
Variable is_word_u : N -> bool.
Variable is_linebreak : N -> bool.

Lemma quote_strategy_cases s : quote_strategy s = SQ \/ quote_strategy s = DQ.
Proof.
  unfold quote_strategy. destruct (negb (mem_n SQ s)); [now left|].
  destruct (negb (mem_n DQ s)); [now right|]. destruct (Nat.leb _ _); auto.
Qed.

(** the escaped text of a literal, cut into escape and plain tokens *)
Definition esc_doc (e : str) : doc :=
  match e with
  | [] => Nil
  | x :: xs => Cat (map (fun p : bool * str => tok (if fst p then T_STRING_ESCAPE else T_LITERAL_STRING) (snd p))
                        (split_escapes (x :: xs)))
  end.

Lemma single_line_str_eq bytes q s :
  single_line_str printable bytes q s
  = Cat [if bytes then tok T_STRING_AFFIX (ch 98) else Text [];
         Annot (ATok T_LITERAL_STRING) (Cat [Text [q]; esc_doc (escape_for_quote printable bytes q s); Text [q]])].
Proof. reflexivity. Qed.

Lemma build_fncall_one ctx f d : is_commented d = None ->
  build_fncall is_space_u is_linebreak ctx f [d] [] false
  = Group (Cat [f; LPAREN; Nest (c_indent ctx) (Cat [SOFTLINE; Cat [Cat [d; Nil]]]); SOFTLINE; RPAREN]).
Proof.
  intros Hc. unfold build_fncall.
  destruct d; try reflexivity. destruct a; try reflexivity. discriminate.
Qed.

Lemma intersperse_ind (x : doc) (P : list doc -> list doc -> Prop) :
  P [] [] -> (forall y, P [y] [y]) ->
  (forall y l r, P l r -> P (y :: l) (y :: x :: r)) ->
  forall l, P l (intersperse x l).
Proof.
  intros H0 H1 H2. induction l as [|y [|z tl] IH]; [exact H0|apply H1|].
  apply (H2 y (z :: tl)), IH.
Qed.

(** The evaluator's result is the subclass call (if any) around a body made
    from a split of the value: one line gives the flat literal; several give
    the pieces, one per line, framed as the multiline strategy says.  A wrapped
    string always takes the plain frame. *)
Definition str_wrap (p : strp) (d : doc) : doc :=
  match sp_wrap p with
  | None => d
  | Some (t, name) =>
      build_fncall is_space_u is_linebreak (mkCtx (sp_indent p) None MPlain 0 false) (tok t name) [d] [] false
  end.

Definition str_frame (m : mls) (i : Z) (parts : list doc) : doc :=
  match m with
  | MPlain => AlwaysBreak (Cat parts)
  | MHang => AlwaysBreak (Nest i (Cat parts))
  | MParens => AlwaysBreak (Cat [LPAREN; Nest i (Cat (HardLine :: parts)); HardLine; RPAREN])
  | MIndented => AlwaysBreak (Cat [Text []; Nest i (Cat (HardLine :: parts)); Nil; Text []])
  end.

Definition str_strategy (p : strp) : mls :=
  match sp_wrap p with Some _ => MPlain | None => sp_strategy p end.

Definition str_body (p : strp) (q : N) (lines : list str) : doc :=
  match lines with
  | [l] => single_line_str printable (sp_bytes p) q l
  | _ => str_frame (str_strategy p) (sp_indent p)
                   (intersperse HardLine (map (single_line_str printable (sp_bytes p) q) lines))
  end.

(** [str_body] by cases; a fact about the body is a fact about [single_line_str]
    and one about [str_frame] *)
Inductive body_form (p : strp) (q : N) : list str -> doc -> Prop :=
| BF_flat l : body_form p q [l] (single_line_str printable (sp_bytes p) q l)
| BF_lines lines : body_form p q lines
    (str_frame (str_strategy p) (sp_indent p)
               (intersperse HardLine (map (single_line_str printable (sp_bytes p) q) lines))).

Lemma str_body_form p q lines : body_form p q lines (str_body p q lines).
Proof. destruct lines as [|l [|l2 tl]]; constructor. Qed.

Lemma str_body_uncommented p q lines : is_commented (str_body p q lines) = None.
Proof. destruct (str_body_form p q lines); [reflexivity|now destruct (str_strategy p)]. Qed.

Definition str_split (s : str) (lines : list str) : Prop :=
  concat lines = s /\ lines <> [] /\ (Forall (fun l => l <> []) lines \/ (lines = [[]] /\ s = [])).

Theorem eval_str_shape p indent column page_width ribbon_width :
  exists lines, str_split (sp_s p) lines /\
    eval_str printable is_space_u is_word_u is_linebreak p indent column page_width ribbon_width
    = str_wrap p (str_body p (quote_strategy (sp_s p)) lines).
Proof.
  set (s := sp_s p).
  assert (Flat : exists lines, str_split s lines /\
            str_wrap p (single_line_str printable (sp_bytes p) (quote_strategy s) s)
            = str_wrap p (str_body p (quote_strategy s) lines)).
  { exists [s]. split; [|reflexivity]. unfold str_split. cbn [concat]. rewrite app_nil_r.
    repeat split; [discriminate|]. destruct s; [now right|left; repeat constructor; discriminate]. }
  unfold eval_str. fold s.
  destruct (slen s + str_quotes_len <=? _); [exact Flat|].
  destruct (str_to_lines _ _ _ _ _ _ _ _ _) as [lines|] eqn:E.
  2:{ exfalso. revert E. apply str_to_lines_total. unfold str_floor. lia. }
  apply str_to_lines_join in E as [Hcat Hne].
  destruct (Nat.leb (length lines) 1) eqn:El; [exact Flat|].
  exists lines. destruct lines as [|l [|l2 tl]]; [cbn in El; lia|cbn in El; lia|].
  split; [repeat split; [exact Hcat|discriminate|now left]|].
  unfold str_body, str_strategy, str_wrap. destruct (sp_wrap p) as [[t name]|]; [reflexivity|].
  now destruct (sp_strategy p).
Qed.

(** the documents the evaluator can return, given the pieces, spelled out
    without [str_wrap] / [str_frame]: the statement of C02_pieces reads on its own *)
Definition assemble (p : strp) (q : N) (lines : list str) : list doc :=
  let pctx0 := mkCtx (sp_indent p) None MPlain 0 false in
  let wrap (d : doc) :=
      match sp_wrap p with
      | None => d
      | Some (t, name) => build_fncall is_space_u is_linebreak pctx0 (tok t name) [d] [] false
      end in
  let pieces := map (single_line_str printable (sp_bytes p) q) lines in
  let parts := intersperse HardLine pieces in
  [ wrap (hd Nil pieces);
    wrap (AlwaysBreak (Cat parts));
    AlwaysBreak (Nest (sp_indent p) (Cat parts));
    AlwaysBreak (Cat [LPAREN; Nest (sp_indent p) (Cat (HardLine :: parts)); HardLine; RPAREN]);
    AlwaysBreak (Cat [Text []; Nest (sp_indent p) (Cat (HardLine :: parts)); Nil; Text []]) ].

Theorem eval_str_pieces p indent column page_width ribbon_width :
  exists lines q,
    (q = SQ \/ q = DQ) /\
    concat lines = sp_s p /\
    lines <> [] /\
    (Forall (fun l => l <> []) lines \/ (lines = [[]] /\ sp_s p = [])) /\
    In (eval_str printable is_space_u is_word_u is_linebreak p indent column page_width ribbon_width)
       (assemble p q lines).
Proof.
  destruct (eval_str_shape p indent column page_width ribbon_width) as (lines & (Hcat & Hn & Hf) & ->).
  exists lines, (quote_strategy (sp_s p)). repeat split; auto using quote_strategy_cases.
  unfold assemble. destruct (str_body_form p (quote_strategy (sp_s p)) lines); [left; reflexivity|]. right.
  unfold str_strategy, str_wrap. destruct (sp_wrap p) as [[t name]|]; [left; reflexivity|].
  destruct (sp_strategy p); cbn [str_frame]; [left|right; left|do 3 right; left|do 2 right; left]; reflexivity.
Qed.

End StrPieces.
