(** Token projection of the document combinators used by the printers
    (bracket, sequence_of_docs, build_fncall, dict pairs): whatever the
    layout, they denote  open items-separated-by-commas close. *)
From PP Require Import Tac Doc Printers PyExpr ValInd.

Lemma DT_fc_eq b f ts tb tf : DT b tb -> DT f tf -> tb = ts -> tf = ts -> DT (FlatChoice b f) ts.
Proof. intros Hb Hf <- <-. now apply DT_fc. Qed.
Lemma DT_ptok t s : (t =? 14)%N = false -> DT (Printers.tok t s) [tok_of t s].
Proof. intros H. apply DT_tok. now apply N.eqb_neq. Qed.
Lemma DT_opt_comma (b : bool) : DT (if b then COMMA else Nil) (if b then [p_comma] else []).
Proof. destruct b; [now apply DT_ptok|constructor]. Qed.
Lemma DT_opt_hard (b : bool) : DT (if b then Nil else HardLine) [].
Proof. destruct b; constructor. Qed.
Lemma DT_break (b : bool) d ts : DT d ts -> DT (if b then AlwaysBreak d else Group d) ts.
Proof. destruct b; now constructor. Qed.

Lemma DTL_app l1 : forall l2 a b, DTL l1 a -> DTL l2 b -> DTL (l1 ++ l2) (a ++ b).
Proof.
  induction l1 as [|d tl IH]; intros l2 a b H1 H2; inv H1; cbn [app]; [exact H2|].
  rewrite <- app_assoc. apply DTL_cons; auto.
Qed.

(** The projection of a document built from constructors over parts whose
    projections are known (hypotheses) is found by following the constructors.
    [dt_build] has one rule per constructor; what is not a constructor
    application is a part, a comment, a token, or a defined constant
    ([LINE], [bracket ..]) to unfold.  [dt] leaves
    the token list found to be compared with the one stated, up to
    associativity and [++ []]; the two branches of a flat_choice are compared
    in the same way. *)
Ltac dt_norm := first [reflexivity | repeat (progress (cbn [app]; rewrite ?app_nil_r, <- ?app_assoc)); try reflexivity].
Ltac dt_build :=
  lazymatch goal with
  | |- DTL _ _ => first [apply DTL_nil | eapply DTL_cons; dt_build | apply DTL_app; dt_build | eassumption]
  | |- DT ?d _ =>
    lazymatch d with
    | Nil => apply DT_nil | HardLine => apply DT_hard | Text _ => apply DT_ws; reflexivity
    | Cat _ => apply DT_cat; dt_build | Fill _ => apply DT_fill; dt_build | Nest _ _ => apply DT_nest; dt_build
    | Group _ => apply DT_group; dt_build | AlwaysBreak _ => apply DT_ab; dt_build
    | Annot (AComment _) _ => apply DT_acomment; dt_build
    | FlatChoice _ _ => eapply DT_fc_eq; [dt_build | dt_build | dt_norm | dt_norm]
    | if _ then AlwaysBreak _ else Group _ => apply DT_break; dt_build
    | _ => first [ eassumption | apply DT_comment | apply DT_ptok; reflexivity
                 | let d' := eval hnf in d in progress change d with d'; dt_build ]
    end
  end.
Ltac dt := eapply eq_ind; [dt_build | dt_norm].

Lemma DT_SOFTLINE : DT SOFTLINE []. Proof. dt. Qed.
Lemma DT_LINE : DT LINE []. Proof. dt. Qed.
Lemma DT_TWO : DT TWO_SPACES []. Proof. dt. Qed.
Lemma DT_COMMA : DT COMMA [p_comma]. Proof. dt. Qed.
Lemma DT_COLON : DT COLON [p_colon]. Proof. dt. Qed.
Lemma DT_LPAREN : DT LPAREN [p_lparen]. Proof. dt. Qed.
Lemma DT_RPAREN : DT RPAREN [p_rparen]. Proof. dt. Qed.
Lemma DT_ASSIGN : DT ASSIGN_OP [p_assign]. Proof. dt. Qed.
Lemma DT_ELLIPSIS : DT ELLIPSIS [p_ellipsis]. Proof. dt. Qed.

Section DocToks.
Variable is_space_u : N -> bool.
Variable is_linebreak : N -> bool.
Lemma DT_uncomment d ts : DT d ts -> DT (uncomment d) ts.
Proof. intros H. destruct d; try exact H. destruct a; try exact H. now inv H. Qed.

Lemma DT_bracket ctx l c r a b e :
  DT l a -> DT c b -> DT r e -> DT (bracket ctx l c r) (a ++ b ++ e).
Proof. intros Hl Hc Hr. dt. Qed.

Lemma sepcomma_cons x y tl : sepcomma (x :: y :: tl) = x ++ p_comma :: sepcomma (y :: tl).
Proof. reflexivity. Qed.

(** the comma after the last element ([dangle]) stands inside the last part
    when that carries a comment; [sequence_of_docs] appends it otherwise *)
Lemma seq_parts_DT dangle : forall docs tss,
  Forall2 DT docs tss ->
  DTL (seq_parts is_space_u is_linebreak docs dangle ++
       (if dangle && negb (nonempty_docs docs && is_some (is_commented (last docs Nil))) then [COMMA] else []))
      (sepcomma tss ++ (if dangle then [p_comma] else [])).
Proof.
  induction 1 as [|d ts docs tss Hd Hrest IH]; [destruct dangle; dt|].
  cbn [seq_parts].
  destruct Hrest as [|d2 ts2 docs' tss' Hd2 Hrest].
  - (* last element *)
    cbn [sepcomma nonempty_docs last andb app]. destruct (is_commented d) as [c|], dangle; cbn [is_some negb orb andb]; dt.
  - (* not last: the appended comma is that of the rest *)
    rewrite sepcomma_cons. destruct (is_commented d) as [c|]; cbn [negb orb]; dt.
Qed.

Lemma sequence_of_docs_DT ctx l docs r dangle fb a e tss :
  DT l a -> DT r e -> Forall2 DT docs tss ->
  DT (sequence_of_docs is_space_u is_linebreak ctx l docs r dangle fb)
     (a ++ sepcomma tss ++ (if dangle then [p_comma] else []) ++ e).
Proof.
  intros Hl Hr HF. unfold sequence_of_docs.
  pose proof (seq_parts_DT dangle docs tss HF) as HP. dt.
Qed.

Lemma fncall_parts_DT : forall docs tss,
  Forall2 DT docs tss ->
  forall hc, DTL (fst (fncall_parts is_space_u is_linebreak docs hc)) (sepcomma tss).
Proof.
  induction 1 as [|d ts docs tss Hd Hrest IH]; intros hc; [constructor|].
  cbn [fncall_parts].
  set (hc' := match is_commented d with Some _ => true | None => hc end).
  specialize (IH hc'). destruct (fncall_parts is_space_u is_linebreak docs hc') as [rest hcr].
  apply DT_uncomment in Hd.
  destruct Hrest as [|d2 ts2 docs' tss' Hd2 Hrest].
  - destruct (is_commented d); dt.
  - destruct (is_commented d), hc'; dt.
Qed.

Lemma kwarg_doc_DT k d ts : DT d ts -> DT (kwarg_doc (k, d)) (TName k :: p_assign :: ts).
Proof. intros H. pose proof (DT_uncomment _ _ H) as H'. rewrite kwarg_doc_eq. destruct (is_commented d); dt. Qed.

Lemma build_fncall_DT ctx fndoc fts argdocs atss kwargdocs ktss hug :
  DT fndoc fts -> Forall2 DT argdocs atss -> Forall2 DT (map kwarg_doc kwargdocs) ktss ->
  DT (build_fncall is_space_u is_linebreak ctx fndoc argdocs kwargdocs hug)
     (fts ++ p_lparen :: sepcomma (atss ++ ktss) ++ [p_rparen]).
Proof.
  intros Hf Ha Hk.
  destruct (build_fncall_form is_space_u is_linebreak ctx fndoc argdocs kwargdocs hug) as [-> ->|a -> ->|].
  - inv Ha. inv Hk. dt.
  - inversion Ha as [|? ta ? ? Hta Hn]; subst. inv Hn. inv Hk. dt.
  - pose proof (fncall_parts_DT _ _ (Forall2_app Ha Hk) false) as HP. unfold call_body.
    destruct (fncall_parts _ _ _ false) as [parts hcm]. dt.
Qed.

Lemma dict_part_DT ctx last kdoc0 vdoc0 vplain kts vts :
  DT kdoc0 kts -> DT vdoc0 vts -> DT (vplain tt) vts ->
  DT (fst (dict_part is_space_u is_linebreak ctx last kdoc0 vdoc0 vplain))
     ((kts ++ p_colon :: vts) ++ (if last then [] else [p_comma])).
Proof.
  intros Hk Hv Hp. apply DT_uncomment in Hk. apply DT_uncomment in Hv.
  unfold dict_part.
  destruct (is_commented kdoc0), (is_commented vdoc0), last; dt.
Qed.

Lemma dict_parts_DT {A} (kt vt : A -> list token) ctx : forall triples (ps : list A),
  Forall2 (fun tr p => DT (fst (fst tr)) (kt p) /\ DT (snd (fst tr)) (vt p) /\ DT (snd tr tt) (vt p)) triples ps ->
  DTL (fst (dict_parts is_space_u is_linebreak ctx triples)) (sepcomma (map (fun p => kt p ++ p_colon :: vt p) ps)).
Proof.
  induction 1 as [|[[k x] xp] p triples ps (Hk & Hv & Hp) Hrest IH]; [constructor|].
  rewrite dict_parts_cons. cbn [fst snd] in *.
  pose proof (dict_part_DT ctx (match triples with [] => true | _ => false end) k x xp _ _ Hk Hv Hp) as HP.
  destruct Hrest; cbn [map]; [|rewrite sepcomma_cons]; dt.
Qed.
End DocToks.
