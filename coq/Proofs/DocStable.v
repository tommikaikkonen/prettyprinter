(** The printed DOCUMENT does not depend on depth / max_seq_len once they are
    large enough: depth greater than the nesting height, max_seq_len at least
    every container length.  The two limits are independent: each is compared with the same context
    without it ([no_depth]) or with another value of it ([set_maxlen]), so
    that the contexts of the recursive calls agree by computation. *)
From Coq Require Import Lia.
From PP Require Import Doc PyVal Printers NormFits ValInd.

Fixpoint hgt (v : pyval) : nat :=
  match v with
  | VList l | VTuple l | VSet l | VFrozenset l =>
      S ((fix mx (l : list pyval) : nat := match l with [] => O | x :: tl => Nat.max (hgt x) (mx tl) end) l)
  | VDict kvs _ =>
      S ((fix mx (l : list (pyval * pyval)) : nat :=
            match l with [] => O | (k, x) :: tl => Nat.max (Nat.max (hgt k) (hgt x)) (mx tl) end) kvs)
  | VSub _ b => hgt b
  | VCommented x _ | VTrailing x _ => hgt x
  | VCall _ args kwargs =>
      S (Nat.max ((fix mx (l : list pyval) : nat := match l with [] => O | x :: tl => Nat.max (hgt x) (mx tl) end) args)
                 ((fix mx (l : list (str * pyval)) : nat :=
                     match l with [] => O | (_, x) :: tl => Nat.max (hgt x) (mx tl) end) kwargs))
  | VInf | VNegInf | VNan => 1%nat
  | _ => O
  end.

Definition deep (h : nat) (c : pctx) : Prop :=
  match c_depth c with None => True | Some d => Z.of_nat h < d end.
Definition no_depth (c : pctx) : pctx := mkCtx (c_indent c) None (c_strategy c) (c_maxlen c) (c_sort c).
Definition set_maxlen (m : Z) (c : pctx) : pctx := mkCtx (c_indent c) (c_depth c) (c_strategy c) m (c_sort c).

Lemma deep_mono h h' c : (h' <= h)%nat -> deep h c -> deep h' c.
Proof. unfold deep. destruct (c_depth c); auto. lia. Qed.
Lemma deep_not0 h c : deep h c -> depth_is0 c = false /\ depth_le0 c = false.
Proof.
  unfold deep, depth_is0, depth_le0. destruct (c_depth c) as [d|]; [|auto]. intros H.
  split; [apply Z.eqb_neq|apply Z.leb_gt]; lia.
Qed.
Lemma deep_nested h c : deep (S h) c -> deep h (nested_call c).
Proof. unfold deep, nested_call. cbn [c_depth]. destruct (c_depth c); cbn [option_map]; auto. lia. Qed.
Lemma deep_unnest h c : deep h (nested_call c) -> deep h c.
Proof. unfold deep, nested_call. cbn [c_depth]. destruct (c_depth c); cbn [option_map]; auto. lia. Qed.

Lemma deep_max a b c : deep (Nat.max a b) c -> deep a c /\ deep b c.
Proof. intros H. split; revert H; apply deep_mono; [apply Nat.le_max_l|apply Nat.le_max_r]. Qed.

(** the three list shapes inside [hgt] *)
Lemma deep_mx {A} (f : A -> nat) c l :
  deep ((fix mx (l : list A) : nat := match l with [] => O | x :: tl => Nat.max (f x) (mx tl) end) l) c ->
  Forall (fun x => deep (f x) c) l.
Proof. intros H. induction l as [|x tl IH]; constructor; apply deep_max in H as [Hx Ht]; auto. Qed.
Lemma deep_mxkv {A B} (f : A -> nat) (g : B -> nat) c l :
  deep ((fix mx (l : list (A * B)) : nat :=
           match l with [] => O | (k, x) :: tl => Nat.max (Nat.max (f k) (g x)) (mx tl) end) l) c ->
  Forall (fun kv => deep (f (fst kv)) c /\ deep (g (snd kv)) c) l.
Proof. intros H. induction l as [|[k x] tl IH]; constructor; apply deep_max in H as [Hkx%deep_max Ht]; auto. Qed.
Lemma deep_mxkw {A B} (g : B -> nat) c (l : list (A * B)) :
  deep ((fix mx (l : list (A * B)) : nat := match l with [] => O | (_, x) :: tl => Nat.max (g x) (mx tl) end) l) c ->
  Forall (fun kv => deep (g (snd kv)) c) l.
Proof. intros H. induction l as [|[k x] tl IH]; constructor; apply deep_max in H as [Hx Ht]; auto. Qed.

Section Stable.
Variable sp lb : N -> bool.
Notation pretty_pv := (pretty_pv sp lb).

(** A change [T] of the context that the value [v] does not notice under the
    condition [P], and its use on the arguments of a call *)
Section Children.
Variables (T : pctx -> pctx) (P : pctx -> pyval -> Prop).
Definition Stable (v : pyval) : Prop := forall c cm tr, P c v -> pretty_pv v c cm tr = pretty_pv v (T c) cm tr.

Lemma map_stable c l : Forall Stable l -> Forall (P c) l ->
  map (fun x => pretty_pv x c None None) l = map (fun x => pretty_pv x (T c) None None) l.
Proof.
  intros IH H. apply map_ext_Forall. revert IH H. apply Forall_impl2. intros x Hx Px. now apply Hx.
Qed.
Lemma mapkw_stable c (kw : list (str * pyval)) :
  Forall (fun kv => Stable (snd kv)) kw -> Forall (fun kv => P c (snd kv)) kw ->
  map (fun '(k, x) => (k, pretty_pv x c None None)) kw = map (fun '(k, x) => (k, pretty_pv x (T c) None None)) kw.
Proof.
  intros IH H. apply map_ext_Forall. revert IH H. apply Forall_impl2. intros [k x] Hx Px. f_equal. now apply Hx.
Qed.
End Children.

Lemma triples_ext c c' kvs :
  Forall (fun kv => key_doc_ sp lb c (fst kv) = key_doc_ sp lb c' (fst kv) /\
                    forall s, pretty_pv (snd kv) (with_strategy (nested_call c) s) None None
                            = pretty_pv (snd kv) (with_strategy (nested_call c') s) None None) kvs ->
  triples_ sp lb c kvs = triples_ sp lb c' kvs.
Proof.
  intros H. apply map_ext_Forall. revert H. apply Forall_impl. intros [k x] [K G]. cbn [fst snd] in *. now rewrite K, !G.
Qed.

Lemma dict_parts_indent c c' l : c_indent c = c_indent c' -> dict_parts sp lb c l = dict_parts sp lb c' l.
Proof.
  intros E. induction l as [|[[k x] xp] tl IH]; [reflexivity|]. cbn [dict_parts]. unfold dict_part. now rewrite IH, E.
Qed.

Section Printers.
Variable c : pctx.
Hypothesis D : deep 0 c.
Let is0 := proj1 (deep_not0 0 c D).
Let le0 := proj2 (deep_not0 0 c D).

Lemma call_alt_d_depth f h same nested kws :
  call_alt_d sp lb c f h same nested kws = call_alt_d sp lb (no_depth c) f h same nested kws.
Proof. unfold call_alt_d. now rewrite le0. Qed.
Lemma str_doc_depth b s w p : str_doc c b s w p = str_doc (no_depth c) b s w p.
Proof. unfold str_doc. now rewrite is0. Qed.
Lemma num_d_depth t base lit sub : num_d sp lb c t base lit sub = num_d sp lb (no_depth c) t base lit sub.
Proof. unfold num_d. now rewrite is0. Qed.
Lemma frozen_d_depth len sub lst : frozen_d sp lb c len sub lst = frozen_d sp lb (no_depth c) len sub lst.
Proof. unfold frozen_d, call_noargs, call_alt_d. now rewrite le0. Qed.
Lemma seq_d_depth kind len sub tr els : seq_d sp lb c kind len sub tr els = seq_d sp lb (no_depth c) kind len sub tr els.
Proof. unfold seq_d, call_noargs, call_alt_d. now rewrite is0, le0. Qed.
Lemma dict_d_depth sub tr so tri : dict_d sp lb c sub tr so tri = dict_d sp lb (no_depth c) sub tr so tri.
Proof.
  unfold dict_d, call_noargs, call_alt_d.
  now rewrite is0, le0, (dict_parts_indent c (no_depth c)).
Qed.
End Printers.

(** float('inf') is a call whose string argument sits one level down: [hgt] counts a special float as 1 *)
Lemma special_float_d_depth c name sub :
  deep 1 c -> special_float_d sp lb c name sub = special_float_d sp lb (no_depth c) name sub.
Proof.
  intros D. assert (D0 : deep 0 c) by (revert D; apply deep_mono; lia).
  unfold special_float_d, call_ellipsis.
  now rewrite !(call_alt_d_depth c D0), (proj1 (deep_not0 0 c D0)), (str_doc_depth (nested_hang c) (deep_nested 0 c D)).
Qed.

Theorem pretty_pv_depth v : forall c cm tr, deep (hgt v) c ->
  pretty_pv v c cm tr = pretty_pv v (no_depth c) cm tr.
Proof.
  pose (P := fun c v => deep (hgt v) c).
  induction v as [sub z|sub r|sub f|sub bytes s|sub k l IH|sub l IH|sub kvs so IH|b| | |w b Hb|x w IH|x w IH|f args kw IHa IHk|w s|r]
    using pyval_ind'; intros c cm tr D.
  all: assert (D0 : deep 0 c) by (revert D; apply deep_mono, Nat.le_0_l).
  - now rewrite !pretty_int, num_d_depth.
  - now rewrite !pretty_float, num_d_depth.
  - rewrite !pretty_special, special_float_d_depth; [reflexivity|now destruct sub, f].
  - now rewrite !pretty_str, str_doc_depth.
  - rewrite !pretty_seq, seq_d_depth, !elems_eq, (map_stable no_depth P _ l IH); [reflexivity| |exact D0].
    apply (deep_mx hgt (nested_call c)), deep_nested. now destruct sub, k.
  - rewrite !pretty_frozen, frozen_d_depth, seq_d_depth, !elems_eq, (map_stable no_depth P _ l IH); [reflexivity| |exact D0..].
    apply (deep_mx hgt (nested_call c)), deep_nested. now destruct sub.
  - rewrite !pretty_dict, dict_d_depth by exact D0.
    rewrite (triples_ext c (no_depth c) kvs); [reflexivity|].
    eapply Forall_impl2; [|exact IH|apply (deep_mxkv hgt hgt (nested_call c)), deep_nested; now destruct sub].
    intros [k x] [Hk Hx] [Dk Dx]. split; [|intros s; now apply Hx].
    rewrite !key_doc_eq. unfold key_ctx. destruct (str_key _); apply Hk; [apply deep_unnest|]; exact Dk.
  - reflexivity.
  - reflexivity.
  - reflexivity.
  - now rewrite !pretty_badsub.
  - exact (IH c _ _ D).
  - exact (IH c _ _ D).
  - apply deep_nested, deep_max in D as [Da%(deep_mx hgt) Dk%(deep_mxkw hgt)].
    rewrite !pretty_call, call_alt_d_depth, (map_stable no_depth P c args IHa),
      (map_stable no_depth P (nested_hang c) args IHa Da), (mapkw_stable no_depth P (nested_hang c) kw IHk Dk);
      [reflexivity| |exact D0].
    (* the hugged argument is printed under [c] itself *)
    revert Da. apply Forall_impl. intros x. apply deep_unnest.
  - now rewrite !pretty_path, str_doc_depth.
  - reflexivity.
Qed.

Lemma seq_d_maxlen c m kind len sub tr els :
  Z.of_nat len <= Z.min (c_maxlen c) m -> length (els tt) = len ->
  seq_d sp lb c kind len sub tr els = seq_d sp lb (set_maxlen m c) kind len sub tr els.
Proof.
  intros L E. unfold seq_d.
  now rewrite (take_z_all (c_maxlen c)), (take_z_all m), (proj2 (Z.ltb_ge (c_maxlen c) _)), (proj2 (Z.ltb_ge m _)) by lia.
Qed.

Lemma dict_d_maxlen c m sub tr so tri :
  Z.of_nat (length (tri tt)) <= Z.min (c_maxlen c) m -> (length so <= length (tri tt))%nat ->
  dict_d sp lb c sub tr so tri = dict_d sp lb (set_maxlen m c) sub tr so tri.
Proof.
  intros L Hso. unfold dict_d. cbn [c_maxlen c_sort set_maxlen].
  rewrite (take_z_sorted_all (c_maxlen c)), (take_z_sorted_all m), (proj2 (Z.ltb_ge (c_maxlen c) _)), (proj2 (Z.ltb_ge m _)) by lia.
  now rewrite (dict_parts_indent c (set_maxlen m c)).
Qed.

Theorem pretty_pv_maxlen m v : forall c cm tr, fits (Z.min (c_maxlen c) m) v ->
  pretty_pv v c cm tr = pretty_pv v (set_maxlen m c) cm tr.
Proof.
  pose (P := fun c v => fits (Z.min (c_maxlen c) m) v).
  induction v as [sub z|sub r|sub f|sub bytes s|sub k l IH|sub l IH|sub kvs so IH|b| | |w b Hb|x w IH|x w IH|f args kw IHa IHk|w s|r]
    using pyval_ind'; intros c cm tr F.
  - now rewrite !pretty_int.
  - now rewrite !pretty_float.
  - now rewrite !pretty_special.
  - now rewrite !pretty_str.
  - apply fits_seq in F as [L F].
    rewrite !pretty_seq, !elems_eq, (seq_d_maxlen c m) by (exact L || apply map_length).
    now rewrite (map_stable (set_maxlen m) P _ l IH).
  - apply fits_frozen in F as [L F].
    rewrite !pretty_frozen, !elems_eq, (seq_d_maxlen c m) by (exact L || apply map_length).
    now rewrite (map_stable (set_maxlen m) P _ l IH).
  - apply fits_dict in F as (L & Hso & F).
    rewrite !pretty_dict, (dict_d_maxlen c m) by (unfold triples_; now rewrite map_length).
    rewrite (triples_ext c (set_maxlen m c) kvs); [reflexivity|].
    revert IH F. apply Forall_impl2. intros [k x] [Hk Hx] [Fk Fx]. split; [|intros s; now apply Hx].
    rewrite !key_doc_eq. unfold key_ctx. destruct (str_key _); now apply Hk.
  - reflexivity.
  - reflexivity.
  - reflexivity.
  - now rewrite !pretty_badsub.
  - exact (IH c _ _ F).
  - exact (IH c _ _ F).
  - destruct F as [Fa Fk]. apply (all_Forall (fits _)) in Fa. apply (allkw_Forall (fits _)) in Fk.
    now rewrite !pretty_call, (map_stable (set_maxlen m) P c args IHa Fa),
      (map_stable (set_maxlen m) P (nested_hang c) args IHa Fa), (mapkw_stable (set_maxlen m) P (nested_hang c) kw IHk Fk).
  - reflexivity.
  - reflexivity.
Qed.

End Stable.
