(** C07, the collections: what CPython's constructors make of the call a
    bundled printer prints is the printed object again; the items of an
    OrderedDict and the elements of a deque come back in their own order
    whatever sort_dict_keys says. *)
From Coq Require Import Lia.
From PP Require Import Doc PyVal Printers PyEval StdColl ValInd.

Section R.
Variable keq : pyval -> pyval -> bool.

Definition fresh (k : pyval) (m : items) : bool := forallb (fun kv => negb (keq k (fst kv))) m.
(** pairwise different keys (each key differs from all the earlier ones) *)
Fixpoint distinct (m l : items) : bool :=
  match l with
  | [] => true
  | (k, x) :: tl => fresh k m && distinct (m ++ [(k, x)]) tl
  end.

Lemma set_item_fresh k x m : fresh k m = true -> set_item keq k x m = m ++ [(k, x)].
Proof.
  induction m as [|[k' x'] tl IH]; intros H; [reflexivity|].
  cbn [fresh forallb fst] in H.
  cbn [set_item app]. destruct (keq k k'); [discriminate|]. f_equal. now apply IH.
Qed.

Lemma fold_distinct : forall l m, distinct m l = true ->
  fold_left (fun m kv => set_item keq (fst kv) (snd kv) m) l m = m ++ l.
Proof.
  induction l as [|[k x] tl IH]; intros m H; cbn [fold_left]; [now rewrite app_nil_r|].
  apply andb_prop in H as [H1 H2].
  rewrite set_item_fresh by exact H1. rewrite IH by exact H2. now rewrite <- app_assoc.
Qed.

Lemma from_pairs_distinct l : distinct [] l = true -> from_pairs keq l = l.
Proof. intros H. unfold from_pairs. now rewrite fold_distinct. Qed.

Lemma untuples_pairs kvs : untuples (map pair_tuple kvs) = Some kvs.
Proof. induction kvs as [|[k x] tl IH]; [reflexivity|]. cbn [map untuples pair_tuple untuple fst snd]. now rewrite IH. Qed.

Lemma lastn_all {A} (m : nat) (l : list A) : (length l <= m)%nat -> lastn m l = l.
Proof. intros H. unfold lastn. replace (length l - m)%nat with O by lia. reflexivity. Qed.

Lemma undicts_dicts maps : undicts (map dict_of maps) = Some maps.
Proof. induction maps as [|[kvs o] tl IH]; [reflexivity|]. cbn [map undicts dict_of undict fst snd]. now rewrite IH. Qed.

Definition kind_of (x : stdval) : skind :=
  match x with
  | SOrdered _ _ => KOrdered | SDeque _ _ _ => KDeque | SDefault _ _ _ _ => KDefault | SCounter _ _ _ => KCounter
  | SChain _ _ => KChain | SProxy _ _ _ => KProxy | SExc _ _ => KExc | SPartial _ _ _ _ => KPartial
  | SUuid _ _ => KUuid | SNamespace _ _ _ => KNamespace | SNamedtuple _ _ => KNamedtuple
  end.

(** the invariants CPython maintains for the objects themselves *)
Definition std_ok (x : stdval) : Prop :=
  match x with
  | SOrdered _ kvs => distinct [] kvs = true
  | SDeque _ els (Some m) => (0 <= m)%Z /\ (Z.of_nat (length els) <= m)%Z
  | _ => True
  end.

(** what the round trip is an identity up to: a ChainMap without content is
    rebuilt as ChainMap(), one empty dict; a namespace comes back with its
    attributes in the order printed *)
Definition canon (x : stdval) : stdval :=
  match x with
  | SChain c [] => SChain c [([], [])]
  | SChain c [([], _)] => SChain c [([], [])]
  | SNamespace c attrs o => SNamespace c (reorder attrs o) []     (* attribute order is not part of a namespace *)
  | _ => x
  end.

Theorem std_rebuild_print x : std_ok x -> std_rebuild keq (kind_of x) (std_print x) = Some (canon x).
Proof.
  (* OrderedDict, deque and ChainMap need an argument; the others store what they are given *)
  destruct x as [c kvs|c els ml|c f kvs o|c mc o|c maps|c kvs o|c args|c f args kws|c text|c attrs o|c fields]; intros Hok;
    cbn [std_ok kind_of std_print canon] in *; try reflexivity.
  - cbn [std_rebuild]. rewrite untuples_pairs. cbn [option_map]. now rewrite from_pairs_distinct.
  - destruct ml as [m|]; cbn [std_rebuild]; [|reflexivity].
    destruct Hok as [H0 Hl]. apply Z.leb_le in H0. rewrite H0. rewrite lastn_all by lia. reflexivity.
  - destruct maps as [|[kvs o] tl]; [reflexivity|].
    destruct kvs as [|kv kvs]; destruct tl as [|[kvs2 o2] tl]; try reflexivity;
      cbn [chain_args map dict_of fst snd std_rebuild undicts undict];
      rewrite undicts_dicts; reflexivity.
Qed.

End R.

(** evaluation keeps the order of an OrderedDict / a deque *)
Definition normpair (n : Z) (sort : bool) (kv : pyval * pyval) : pyval * pyval :=
  (norm n sort (fst kv), norm n sort (snd kv)).

Lemma norm_pairs n sort kvs : (2 <= n)%Z ->
  map (norm n sort) (map pair_tuple kvs) = map pair_tuple (map (normpair n sort) kvs).
Proof.
  intros Hn. rewrite !map_map. apply map_ext. intros kv.
  unfold pair_tuple, normpair. cbn [norm fst snd map]. now rewrite take_z_all by (cbn [length]; lia).
Qed.

Theorem ordered_order_kept n sort c kvs : (2 <= n)%Z -> (Z.of_nat (length kvs) <= n)%Z ->
  norm n sort (std_print (SOrdered c kvs)) = std_print (SOrdered c (map (normpair n sort) kvs)).
Proof.
  intros Hn Hl. cbn [std_print norm map]. rewrite norm_pairs by exact Hn.
  rewrite take_z_all by (now rewrite !map_length). reflexivity.
Qed.

Theorem deque_order_kept n sort c els ml : (Z.of_nat (length els) <= n)%Z ->
  norm n sort (std_print (SDeque c els ml)) = std_print (SDeque c (map (norm n sort) els) ml).
Proof.
  intros Hl. cbn [std_print norm map]. rewrite take_z_all by (now rewrite map_length).
  destruct ml; reflexivity.
Qed.
