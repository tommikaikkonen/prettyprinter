(** C12, end to end: pformat's document of ANY value weighs at most 1000 |v|
    (|v| = nodes + characters of strings and comments; max_seq_len >= 0, sort
    orders without duplicates), and the layout of it finishes within
    1000 |v| + 1 iterations of the main loop, each look-ahead within 1000 |v|
    iterations: at most (1000 |v| + 1)^2 loop iterations. *)
From Coq Require Import Lia.
From PP Require Import Doc Printers Pformat FuelAll StrWeight LinearDocs.

Section PB.
Variable printable sp isw lb : N -> bool.

Notation W := (wt cb_str).

Theorem pretty_linear v ctx cm tr : sorted_ok v -> (0 <= c_maxlen ctx)%Z ->
  (W (pretty_pv sp lb v ctx cm tr) <= K * (vsz v + olen cm + olen tr))%nat.
Proof.
  intros Hok Hm. destruct (pretty_lin sp lb v Hok cm) as [c H]. destruct (H ctx tr Hm) as [_ Hc].
  unfold cost in Hc. lia.
Qed.

Theorem top_doc_linear v indent depth maxlen sort : sorted_ok v -> (0 <= maxlen)%Z ->
  (W (top_doc sp lb v indent depth maxlen sort) <= K * vsz v)%nat.
Proof.
  intros Hok Hm. pose proof (top_doc_wt sp lb v indent depth maxlen sort).
  pose proof (lin_cost sp lb v (mkCtx indent depth MPlain maxlen sort) (pretty_lin sp lb v) Hok Hm). lia.
Qed.

Theorem sdocs_total fuel ff v indent width rw depth maxlen sort :
  sorted_ok v -> (0 <= maxlen)%Z -> (K * vsz v < fuel)%nat -> (K * vsz v <= ff)%nat ->
  sdocs_model printable sp isw lb fuel ff v indent width rw depth maxlen sort <> None.
Proof.
  intros Hok Hm Hf Hff. pose proof (top_doc_linear v indent depth maxlen sort Hok Hm) as Ht.
  apply (best_layout_fuel cb_str _ (eval_str_weight printable sp isw lb cb_str)); lia.
Qed.

End PB.
