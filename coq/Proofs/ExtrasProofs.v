(** C17: the extras print exactly the fields with repr enabled whose value
    differs from the declared default (or that have none), in declaration
    order, and the call reconstructs the instance. *)
From PP Require Import Doc Extras PyEval ExtrasModel.

(** what the property prescribes *)
Definition spec_shown (f : field) : bool :=
  f_repr f && (negb (has_default f || has_factory f) || f_ne f).

(** a dataclass field cannot declare both a default and a default factory *)
Definition dc_wf (f : field) : Prop := has_default f = false \/ has_factory f = false.

(** both extras select by the prescribed rule, [dc_wf] or not *)
Lemma dc_shown_spec f : dc_shown f = spec_shown f.
Proof.
  unfold dc_shown, spec_shown, dc_display.
  now destruct (f_repr f), (has_default f), (has_factory f), (f_ne f).
Qed.

Lemma attrs_shown_spec f : attrs_shown f = spec_shown f.
Proof.
  unfold attrs_shown, spec_shown, attrs_display.
  now destruct (f_repr f), (has_default f), (has_factory f), (f_ne f).
Qed.

Lemma kwargs_of_ext s1 s2 fields : (forall f, s1 f = s2 f) -> kwargs_of s1 fields = kwargs_of s2 fields.
Proof. intros Hs. unfold kwargs_of. f_equal. now apply filter_ext. Qed.

Theorem dataclass_fields fields :
  kwargs_of dc_shown fields = map (fun f => (f_name f, f_value f)) (filter spec_shown fields).
Proof. apply (kwargs_of_ext dc_shown spec_shown), dc_shown_spec. Qed.

Theorem attrs_fields fields :
  kwargs_of attrs_shown fields = map (fun f => (f_name f, f_value f)) (filter spec_shown fields).
Proof. apply (kwargs_of_ext attrs_shown spec_shown), attrs_shown_spec. Qed.

(** reconstruction: != is honest (a field that does not differ from its
    default holds it), distinct field names *)
Definition honest (f : field) : Prop :=
  f_ne f = false -> (match f_default f, f_factory f with
                     | Some d, _ => d = f_value f
                     | None, Some d => d = f_value f
                     | None, None => True end).
(** a field hidden by repr=False must hold its default for the print to be reconstructible *)
Definition hidden_ok (f : field) : Prop :=
  f_repr f = false -> (has_default f || has_factory f) = true /\ f_ne f = false.

Lemma str_eqb_spec a : forall b, reflect (a = b) (str_eqb a b).
Proof.
  induction a as [|x a IH]; intros [|y b]; cbn [str_eqb]; try (constructor; congruence).
  destruct (N.eqb_spec x y) as [->|Hne]; cbn [andb]; [|constructor; congruence].
  destruct (IH b) as [->|Hne]; constructor; congruence.
Qed.

Lemma lookup_kwargs_notin shown k fields :
  ~ In k (map f_name fields) -> lookup k (kwargs_of shown fields) = None.
Proof.
  unfold kwargs_of. induction fields as [|x l IH]; intros Hn; [reflexivity|]. cbn [filter]. cbn [map In] in Hn.
  destruct (shown x); cbn [map lookup]; [|apply IH; tauto].
  destruct (str_eqb_spec k (f_name x)) as [->|_]; [tauto|apply IH; tauto].
Qed.

Lemma lookup_kwargs shown : forall fields f,
  NoDup (map f_name fields) -> In f fields ->
  lookup (f_name f) (kwargs_of shown fields) = if shown f then Some (f_value f) else None.
Proof.
  induction fields as [|g tl IH]; intros f Hnd Hin; [destruct Hin|].
  apply NoDup_cons_iff in Hnd as [Hg Hnd]. unfold kwargs_of in *. cbn [filter]. destruct Hin as [->|Hin].
  - destruct (shown f); cbn [map lookup]; [|now apply lookup_kwargs_notin].
    now destruct (str_eqb_spec (f_name f) (f_name f)).
  - destruct (shown g); cbn [map lookup]; [|now apply IH].
    destruct (str_eqb_spec (f_name f) (f_name g)) as [Ex|_]; [|now apply IH].
    exfalso. apply Hg. rewrite <- Ex. now apply in_map.
Qed.

Theorem reconstructs fields :
  NoDup (map f_name fields) -> Forall dc_wf fields -> Forall honest fields -> Forall hidden_ok fields ->
  forall f, In f fields -> init_value (kwargs_of spec_shown fields) f = Some (f_value f).
Proof.
  intros Hnd _ Hh Hhid f Hin. unfold init_value. rewrite (lookup_kwargs spec_shown fields f Hnd Hin).
  destruct (spec_shown f) eqn:Es; [reflexivity|].
  (* a field that is not shown has a default and does not differ from it *)
  assert (has_default f || has_factory f = true /\ f_ne f = false) as [Hd Hne].
  { unfold spec_shown in Es. destruct (f_repr f) eqn:Er; [|exact (proj1 (Forall_forall _ _) Hhid f Hin Er)].
    destruct (has_default f || has_factory f), (f_ne f); try discriminate. now split. }
  pose proof (proj1 (Forall_forall _ _) Hh f Hin Hne) as Hf.
  unfold has_default, has_factory in Hd.
  destruct (f_default f), (f_factory f); try discriminate; now rewrite Hf.
Qed.
