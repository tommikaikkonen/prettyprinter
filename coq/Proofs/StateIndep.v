(** C19: what was printed (or queried) before leaves no trace in the printer
    dispatch: the printer chosen for a class depends only on the
    registrations made so far. *)

From PP Require Import Doc Dispatch DispatchProofs.

Section SI.
Variable mro : cls -> list cls.
Variable accepts : pd -> nat -> bool.
Hypothesis Hmro : forall c, exists tl, mro c = c :: tl.

Definition is_reg_op (o : dop) : bool :=
  match o with RegClass _ _ | RegName _ _ | RegPred _ _ => true | _ => false end.

Definition sfold (s : sstate) (h : list dop) : sstate := fold_left sstep h s.

Lemma sfold_filter : forall h s, sfold s h = sfold s (filter is_reg_op h).
Proof.
  induction h as [|o tl IH]; intros s; [reflexivity|]. unfold sfold in *. cbn [fold_left filter].
  destruct o; cbn [is_reg_op fold_left]; apply IH.
Qed.

(** Every operation keeps the invariant, so a print after ANY history - queries
    with check_deferred = False included - chooses what the rule chooses in
    the abstract state the registrations alone lead to. *)
Lemma print_after : forall h st s c i, Inv st s ->
  last (drun mro accepts st (h ++ [Print c i])) OUnit = OChosen (schosen mro accepts (sfold s h) c i).
Proof.
  induction h as [|o tl IH]; intros st s c i HI; cbn [app drun].
  - destruct (step_refines mro accepts Hmro st s (Print c i) HI) as [E _].
    destruct (dstep mro accepts st (Print c i)) as [x st']. exact (E eq_refl).
  - destruct (step_refines mro accepts Hmro st s o HI) as [_ HI'].
    destruct (dstep mro accepts st o) as [x st']. specialize (IH st' (sstep s o) c i HI').
    destruct (drun mro accepts st' (tl ++ [Print c i])) eqn:E; [destruct tl; discriminate|exact IH].
Qed.

Theorem prints_leave_no_trace_all h1 h2 c i :
  filter is_reg_op h1 = filter is_reg_op h2 ->
  last (drun mro accepts dinit (h1 ++ [Print c i])) OUnit = last (drun mro accepts dinit (h2 ++ [Print c i])) OUnit.
Proof.
  intros E. rewrite !(print_after _ dinit sinit) by apply Inv_init. now rewrite (sfold_filter h1), (sfold_filter h2), E.
Qed.

Theorem prints_leave_no_trace h1 h2 c i :
  forallb cd_query h1 = true -> forallb cd_query h2 = true ->
  filter is_reg_op h1 = filter is_reg_op h2 ->
  last (drun mro accepts dinit (h1 ++ [Print c i])) OUnit = last (drun mro accepts dinit (h2 ++ [Print c i])) OUnit.
Proof. intros _ _. apply prints_leave_no_trace_all. Qed.

End SI.
