(** C04 (annotation clauses): in every layout a document denotes, the
    annotation pushes and pops are properly nested around the fragments they
    wrap, and the layout without them is a layout of the document with its
    annotations erased (same fragments, line breaks, columns). *)

From PP Require Import Doc Sem DocInd SemLemmas.

Fixpoint nopop (d : doc) : bool :=
  match d with
  | Cat l | Fill l => (fix all (l : list doc) : bool := match l with [] => true | x :: tl => nopop x && all tl end) l
  | Nest _ x | Group x | AlwaysBreak x | Annot _ x | Align x => nopop x
  | FlatChoice b f | FCN b f => nopop b && nopop f
  | PopD _ => false
  | _ => true
  end.
Lemma nopop_list l : (fix all (l : list doc) : bool := match l with [] => true | x :: tl => nopop x && all tl end) l = forallb nopop l.
Proof. reflexivity. Qed.
Definition is_pop (d : doc) : bool := match d with PopD _ => true | _ => false end.
Lemma nopop_dall : forall d, nopop d = dall (fun d => negb (is_pop d)) d.
Proof. apply dall_unique. intros []; reflexivity. Qed.
Lemma nopop_unab d : nopop d = true -> nopop (unab d) = true.
Proof. rewrite !nopop_dall. apply dall_unab. Qed.

Fixpoint erase (d : doc) : doc :=
  match d with
  | Cat l => Cat ((fix go (l : list doc) : list doc := match l with [] => [] | x :: tl => erase x :: go tl end) l)
  | Fill l => Fill ((fix go (l : list doc) : list doc := match l with [] => [] | x :: tl => erase x :: go tl end) l)
  | Nest j x => Nest j (erase x)
  | Group x => Group (erase x)
  | AlwaysBreak x => AlwaysBreak (erase x)
  | Align x => Align (erase x)
  | FlatChoice b f => FlatChoice (erase b) (erase f)
  | FCN b f => FCN (erase b) (erase f)
  | Annot _ x => erase x
  | PopD _ => Nil
  | _ => d
  end.
Lemma erase_list l : (fix go (l : list doc) : list doc := match l with [] => [] | x :: tl => erase x :: go tl end) l = map erase l.
Proof. reflexivity. Qed.

Definition not_ann (x : sdoc) : bool := match x with SPush _ | SPop _ => false | _ => true end.
Definition drop_ann (o : list sdoc) : list sdoc := filter not_ann o.
Lemma drop_app a b : drop_ann (a ++ b) = drop_ann a ++ drop_ann b.
Proof. apply filter_app. Qed.

Inductive WN : list sdoc -> Prop :=
| WN_nil : WN []
| WN_text s : WN [SText s]
| WN_line i : WN [SLine i]
| WN_app a b : WN a -> WN b -> WN (a ++ b)
| WN_wrap a o : WN o -> WN (SPush a :: o ++ [SPop a]).

Section AP.
Variable evs : strp -> Z -> Z -> Z -> Z -> doc.
Variables w rw : Z.

Hypothesis evs_nopop : forall p i c, nopop (evs p i c w rw) = true.

Theorem lay_wellnested :
  forall m i c d o c', Lay evs w rw m i c d o c' -> nopop d = true -> WN o.
Proof.
  intros m i c d o c' H Hd. rewrite nopop_dall in Hd.
  apply (lay_all evs w rw (fun d => negb (is_pop d)) (fun _ => True) WN) with m i c d c';
    auto using WN; try discriminate.
  (* left: [q_evs]; [P_pop] asks nothing, no pop passes the test *)
  intros p i0 c0 _. rewrite <- nopop_dall. apply evs_nopop.
Qed.

End AP.

Section Erase.
Variable evs : strp -> Z -> Z -> Z -> Z -> doc.
Variables w rw : Z.

(** the evaluator whose results are erased as well *)
Definition evs' : strp -> Z -> Z -> Z -> Z -> doc := fun p i c w0 rw0 => erase (evs p i c w0 rw0).

(** not [erase (unab d)]: erasing an annotation can uncover an always_break *)
Lemma unab_erase d : unab (erase d) = unab (erase (unab d)).
Proof. induction d; cbn [unab erase]; auto. Qed.

Lemma drop_txt s : drop_ann (txt s) = txt s.
Proof. destruct s; reflexivity. Qed.

Lemma drop_wrap a o : drop_ann (SPush a :: o ++ [SPop a]) = drop_ann o.
Proof. change (drop_ann (o ++ [SPop a]) = drop_ann o). rewrite drop_app. apply app_nil_r. Qed.

Theorem lay_erase :
  forall m i c d o c', Lay evs w rw m i c d o c' -> Lay evs' w rw m i c (erase d) (drop_ann o) c'.
Proof.
  intros m i c d o c' H.
  induction H using Lay_mut with
    (P0 := fun m i c l o c' => LayList evs' w rw m i c (map erase l) (drop_ann o) c')
    (P1 := fun i c l o c' => LayFill evs' w rw i c (map erase l) (drop_ann o) c');
    cbn [erase map]; rewrite ?erase_list, ?drop_app, ?drop_txt; try (econstructor; eassumption).
  - (* annot: the push and the pop disappear *) now rewrite drop_wrap.
  - (* an item of a fill *) apply LF_cons with mx c1; [|assumption]. rewrite unab_erase. now apply Lay_unab.
Qed.

End Erase.
