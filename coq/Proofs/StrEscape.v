(** C02: escape_str_for_quote (repr() followed by the textual re-quoting)
    is, for either quote, the character-by-character escaping - and decodes
    back to the original string. *)
From Coq Require Import Lia.
From PP Require Import Doc PyStr PyLit.
Local Open Scope N_scope.

Section StrEscape.
Variable printable : N -> bool.

Definition rc (bytes : bool) (q : N) : N -> str :=
  if bytes then repr_char_b q else repr_char_u printable q.

Lemma between a b x : a <= x <= b -> (a <=? x) && (x <=? b) = true.
Proof. intros [H1 H2]. apply N.leb_le in H1, H2. now rewrite H1, H2. Qed.

Lemma hexdigit_ok d : d < 16 -> hexval (hexdigit d) = Some d.
Proof.
  intros H. unfold hexdigit, hexval. destruct (N.ltb_spec d 10).
  - rewrite between by lia. f_equal. lia.
  - replace (87 + d <=? 57) with false by (symmetry; apply N.leb_gt; lia).
    rewrite andb_false_r, between by lia. f_equal. lia.
Qed.

(** digits are characters from "0" upwards: never a quote *)
Lemma hex_chars k : forall c x, In x (hex k c) -> 48 <= x.
Proof.
  induction k as [|k IH]; intros c x H; cbn [hex] in H; [contradiction|].
  apply in_app_or in H as [H|[<-|[]]]; [eauto|].
  unfold hexdigit. generalize (c mod 16). intros d. destruct (d <? 10); lia.
Qed.

Lemma hex_length k : forall c, length (hex k c) = k.
Proof. induction k as [|k IH]; intros c; cbn [hex]; [reflexivity|]. rewrite app_length, IH. cbn. lia. Qed.

Lemma unhex_plus a b : forall acc s,
  unhex (a + b) acc s = match unhex a acc s with Some (v, s') => unhex b v s' | None => None end.
Proof.
  induction a as [|a IH]; intros acc s; [reflexivity|]. cbn [Nat.add unhex].
  destruct s as [|d tl]; [reflexivity|]. destruct (hexval d); [apply IH|reflexivity].
Qed.

Lemma unhex_hex_acc k : forall c acc rest, c < 16 ^ N.of_nat k ->
  unhex k acc (hex k c ++ rest) = Some (acc * 16 ^ N.of_nat k + c, rest).
Proof.
  induction k as [|k IH]; intros c acc rest H.
  - cbn in *. f_equal. f_equal. lia.
  - rewrite Nat2N.inj_succ, N.pow_succ_r' in *.
    cbn [hex]. rewrite <- Nat.add_1_r, unhex_plus, <- app_assoc.
    rewrite IH by (apply N.div_lt_upper_bound; lia). cbn [app unhex].
    rewrite hexdigit_ok by (apply N.mod_lt; lia).
    pose proof (N.div_mod c 16). f_equal. f_equal. lia.
Qed.

Lemma unhex_hex k c rest : c < 16 ^ N.of_nat k -> unhex k 0 (hex k c ++ rest) = Some (c, rest).
Proof. intros H. now rewrite unhex_hex_acc. Qed.

Definition valid (bytes : bool) (c : N) : Prop := if bytes then c < 256 else c < 1114112.

(** The four shapes a character's escape can take.  Everything below knows
    [rc] only through them and through the three equations [rc_self],
    [rc_quote], [rc_indep] that say how it depends on the quote. *)
Inductive rc_form (bytes : bool) (q c : N) : str -> Prop :=
| RC_quoted : c = q \/ c = BS -> rc_form bytes q c [BS; c]
| RC_plain : c <> q -> c <> BS -> rc_form bytes q c [c]
| RC_letter e : In (c, e) [(9, 116); (10, 110); (13, 114)] -> rc_form bytes q c [BS; e]
| RC_hex e k : In (e, k) [(120, 2%nat); (117, 4%nat); (85, 8%nat)] ->
    (bytes = true -> e = 120) -> (valid bytes c -> c < 16 ^ N.of_nat k) ->
    rc_form bytes q c (BS :: e :: hex k c).

Lemma rc_cases bytes q c : rc_form bytes q c (rc bytes q c).
Proof.
  unfold rc, repr_char_b, repr_char_u. destruct bytes.
  all: destruct ((c =? q) || (c =? BS))%bool eqn:E0;
    [apply RC_quoted; apply orb_true_iff in E0 as [E|E]; apply N.eqb_eq in E; auto|].
  all: apply orb_false_iff in E0 as [Eq Eb]; apply N.eqb_neq in Eq, Eb.
  all: destruct (N.eqb_spec c 9) as [->|_]; [apply RC_letter; cbn; auto|].
  all: destruct (N.eqb_spec c 10) as [->|_]; [apply RC_letter; cbn; auto|].
  all: destruct (N.eqb_spec c 13) as [->|_]; [apply RC_letter; cbn; auto|].
  - destruct ((c <? 32) || (127 <=? c))%bool; [|now apply RC_plain].
    apply (RC_hex _ _ _ 120 2%nat); cbn; auto.
  - destruct ((c <? 32) || (c =? 127))%bool eqn:E.
    { apply (RC_hex _ _ _ 120 2%nat); cbn; auto. intros _.
      apply orb_true_iff in E as [E|E]; [apply N.ltb_lt in E|apply N.eqb_eq in E]; lia. }
    destruct (c <? 127); [now apply RC_plain|]. destruct (printable c); [now apply RC_plain|].
    destruct (c <=? 255) eqn:E255; [apply N.leb_le in E255; apply (RC_hex _ _ _ 120 2%nat); cbn; auto; lia|].
    destruct (c <=? 65535) eqn:E64; [apply N.leb_le in E64; apply (RC_hex _ _ _ 117 4%nat); cbn; auto; try discriminate; lia|].
    apply (RC_hex _ _ _ 85 8%nat); cbn; auto; try discriminate. lia.
Qed.

Lemma rc_nonempty bytes q c : rc bytes q c <> [].
Proof. destruct (rc_cases bytes q c); discriminate. Qed.

Lemma rc_chars bytes q c y : In y (rc bytes q c) -> y = c \/ 48 <= y.
Proof.
  destruct (rc_cases bytes q c) as [_|_ _|e He|e k He _ _]; cbn [In]; unfold BS.
  - intros [<-|[<-|[]]]; [right; lia|now left].
  - intros [<-|[]]. now left.
  - intros [<-|[<-|[]]]; right; [lia|]. destruct He as [[= _ <-]|[[= _ <-]|[[= _ <-]|[]]]]; lia.
  - intros [<-|[<-|H]]; right; [lia| |now apply hex_chars in H].
    destruct He as [[= <- _]|[[= <- _]|[[= <- _]|[]]]]; lia.
Qed.

Lemma rc_notin bytes q c x : (x = SQ \/ x = DQ) -> c <> x -> ~ In x (rc bytes q c).
Proof. intros Hx Hc H. apply rc_chars in H as [->|H]; [congruence|]. unfold SQ, DQ in Hx. lia. Qed.

Lemma rc_hd bytes q c : q = SQ \/ q = DQ -> hd 0 (rc bytes q c) <> q.
Proof.
  intros Hq. unfold SQ, DQ in Hq.
  destruct (rc_cases bytes q c) as [_|Hcq _|e _|e k _ _ _]; cbn [hd]; unfold BS; [lia|exact Hcq|lia|lia].
Qed.

(** [rc] looks at the quote only to compare the character with it *)
Lemma rc_self bytes q : rc bytes q q = [BS; q].
Proof. unfold rc, repr_char_b, repr_char_u. destruct bytes; now rewrite N.eqb_refl. Qed.

Lemma rc_indep bytes q q' c : c <> q -> c <> q' -> rc bytes q c = rc bytes q' c.
Proof.
  intros H H'. apply N.eqb_neq in H, H'. unfold rc, repr_char_b, repr_char_u. destruct bytes; now rewrite H, H'.
Qed.

Lemma rc_quote bytes q x : x = SQ \/ x = DQ -> x <> q -> rc bytes q x = [x].
Proof.
  intros Hx H. apply N.eqb_neq in H. unfold rc, repr_char_b, repr_char_u.
  destruct Hx as [-> | ->], bytes; now rewrite H.
Qed.

Lemma replace1_flat_map a new (g : N -> str) s :
  replace1 a new (flat_map g s) = flat_map (fun c => replace1 a new (g c)) s.
Proof.
  unfold replace1. induction s as [|c tl IH]; [reflexivity|]. cbn [flat_map].
  now rewrite flat_map_app, IH.
Qed.

Lemma replace1_notin a new s : ~ In a s -> replace1 a new s = s.
Proof.
  unfold replace1. induction s as [|x tl IH]; intros H; [reflexivity|]. cbn [flat_map].
  destruct (N.eqb_spec x a) as [->|_]; [exfalso; apply H; now left|].
  cbn [app]. f_equal. apply IH. intros Hin. apply H. now right.
Qed.

Definition nohd (b : N) (l : str) : Prop := match l with [] => True | y :: _ => y <> b end.

Lemma nohd_app b chunk rest : ~ In b chunk -> nohd b rest -> nohd b (chunk ++ rest).
Proof. destruct chunk as [|x tl]; [auto|]. intros H _ ->. apply H. now left. Qed.

Lemma replace2_cons a b new x l : nohd b l -> replace2 a b new (x :: l) = x :: replace2 a b new l.
Proof.
  destruct l as [|y l]; [reflexivity|]. intros H. apply N.eqb_neq in H. cbn [replace2]. now rewrite H, andb_false_r.
Qed.

Lemma replace2_chunk_other a b new chunk rest :
  ~ In b chunk -> nohd b rest -> replace2 a b new (chunk ++ rest) = chunk ++ replace2 a b new rest.
Proof.
  induction chunk as [|x tl IH]; intros Hn Hr; [reflexivity|]. cbn [app].
  assert (Hn' : ~ In b tl) by (intros Hin; apply Hn; now right).
  rewrite replace2_cons by now apply nohd_app. now rewrite IH.
Qed.

Lemma replace2_notin a b new s : ~ In b s -> replace2 a b new s = s.
Proof. intros H. pose proof (replace2_chunk_other a b new s [] H I) as E. now rewrite !app_nil_r in E. Qed.

Lemma replace2_chunk_hit a b new rest :
  replace2 a b new ([a; b] ++ rest) = new ++ replace2 a b new rest.
Proof. cbn [app replace2]. now rewrite !N.eqb_refl. Qed.

Lemma flat_map_rc_hd bytes q s : q = SQ \/ q = DQ -> nohd q (flat_map (rc bytes q) s).
Proof.
  intros Hq. destruct s as [|c tl]; [exact I|]. cbn [flat_map].
  pose proof (rc_hd bytes q c Hq) as H. destruct (rc bytes q c) eqn:E; [now apply rc_nonempty in E|exact H].
Qed.

(** repr's body with its own quote unescaped again ... *)
Lemma unquote bytes q s : q = SQ \/ q = DQ ->
  replace2 BS q [q] (flat_map (rc bytes q) s) = flat_map (fun c => if c =? q then [q] else rc bytes q c) s.
Proof.
  intros Hq. induction s as [|c tl IH]; [reflexivity|]. cbn [flat_map].
  destruct (N.eqb_spec c q) as [->|E].
  - now rewrite rc_self, replace2_chunk_hit, IH.
  - rewrite replace2_chunk_other, IH; [reflexivity|now apply rc_notin|now apply flat_map_rc_hd].
Qed.

(** ... and the other quote escaped: the body repr would have made for that quote *)
Lemma requote bytes q0 q1 s : q0 = SQ \/ q0 = DQ -> q1 = SQ \/ q1 = DQ -> q0 <> q1 ->
  replace1 q1 [BS; q1] (replace2 BS q0 [q0] (flat_map (rc bytes q0) s)) = flat_map (rc bytes q1) s.
Proof.
  intros H0 H1 Hne. rewrite unquote, replace1_flat_map by exact H0. apply flat_map_ext. intros c.
  destruct (N.eqb_spec c q0) as [->|E0].
  - rewrite rc_quote by auto. apply replace1_notin. intros [H|[]]. congruence.
  - destruct (N.eqb_spec c q1) as [->|E1].
    + rewrite rc_quote, rc_self by auto. unfold replace1. cbn [flat_map]. now rewrite N.eqb_refl.
    + rewrite replace1_notin by now apply rc_notin. now apply rc_indep.
Qed.

Lemma repr_quote_cases s : repr_quote s = SQ \/ (repr_quote s = DQ /\ ~ In DQ s).
Proof.
  unfold repr_quote. destruct (mem_n SQ s && negb (mem_n DQ s))%bool eqn:E; [right|now left].
  split; [reflexivity|]. apply andb_prop in E as [_ E]. apply negb_true_iff in E.
  intros Hin. rewrite <- Bool.not_true_iff_false in E. apply E.
  apply existsb_exists. exists DQ. split; [exact Hin|apply N.eqb_refl].
Qed.

(** escape_str_for_quote is the character-wise escaping for the wanted quote *)
Theorem escape_direct bytes q s :
  q = SQ \/ q = DQ -> escape_for_quote printable bytes q s = flat_map (rc bytes q) s.
Proof.
  intros Hq. unfold escape_for_quote, repr_body. fold (rc bytes (repr_quote s)).
  destruct (N.eqb_spec (repr_quote s) q) as [->|E]; [reflexivity|].
  destruct (repr_quote_cases s) as [Hr|[Hr _]]; rewrite Hr in *.
  - destruct Hq as [-> | ->]; [congruence|]. apply requote; auto.
  - destruct Hq as [-> | ->]; [|congruence]. apply requote; auto.
Qed.

Lemma unesc_chunk bytes q c f rest :
  q = SQ \/ q = DQ -> valid bytes c ->
  unesc (S f) bytes q (rc bytes q c ++ rest) = option_map (cons c) (unesc f bytes q rest).
Proof.
  intros Hq Hv.
  assert (Hqb : (BS =? q) = false) by (apply N.eqb_neq; unfold BS, SQ, DQ in *; lia).
  destruct (rc_cases bytes q c) as [Hc|Hcq Hcb|e He|e k He Hb Hk].
  - cbn [app unesc]. rewrite Hqb, N.eqb_refl.
    replace ((c =? BS) || (c =? SQ) || (c =? DQ))%bool with true; [reflexivity|].
    destruct Hc as [->| ->]; [destruct Hq as [->| ->]|]; reflexivity.
  - cbn [app unesc]. apply N.eqb_neq in Hcq, Hcb. now rewrite Hcq, Hcb.
  - (* the table is read off while the goal is small; then the decoder's tests on [e] compute *)
    destruct He as [[= <- <-]|[[= <- <-]|[[= <- <-]|[]]]]; cbn [app unesc]; now rewrite Hqb.
  - specialize (Hk Hv).
    destruct He as [[= <- <-]|[[= <- <-]|[[= <- <-]|[]]]]; cbn [app unesc]; rewrite Hqb;
      cbn [N.eqb Pos.eqb BS SQ DQ orb andb].
    + now rewrite unhex_hex.
    + destruct bytes; [now specialize (Hb eq_refl)|]. now rewrite unhex_hex.
    + destruct bytes; [now specialize (Hb eq_refl)|]. now rewrite unhex_hex.
Qed.

Lemma unesc_flat_map bytes q : q = SQ \/ q = DQ -> forall s fuel,
  Forall (valid bytes) s -> (length s < fuel)%nat ->
  unesc fuel bytes q (flat_map (rc bytes q) s) = Some s.
Proof.
  intros Hq. induction s as [|c tl IH]; intros fuel HF Hl.
  - destruct fuel; [cbn in Hl; lia|reflexivity].
  - destruct fuel as [|f]; [cbn in Hl; lia|]. cbn [flat_map]. apply Forall_cons_iff in HF as [Hc HF].
    rewrite unesc_chunk by auto. rewrite IH; auto. cbn [length] in Hl. lia.
Qed.

Lemma concat_ne_length (l : list str) : Forall (fun x => x <> []) l -> (length l <= length (concat l))%nat.
Proof.
  induction 1 as [|x tl Hx _ IH]; [apply le_n|]. cbn [length concat]. rewrite app_length.
  destruct x; [congruence|]. cbn [length]. lia.
Qed.

Lemma flat_map_rc_len bytes q s : (length s <= length (flat_map (rc bytes q) s))%nat.
Proof.
  rewrite flat_map_concat_map, <- (map_length (rc bytes q) s).
  apply concat_ne_length, Forall_map, Forall_forall. intros c _. apply rc_nonempty.
Qed.

(** C02_escape_roundtrip: the literal  q ++ escape_str_for_quote(q, s) ++ q
    denotes exactly s - for str (every code point) and bytes (every byte),
    either quote, every printable-class instantiation *)
Theorem escape_roundtrip bytes q s :
  q = SQ \/ q = DQ -> Forall (valid bytes) s ->
  literal_value bytes q (escape_for_quote printable bytes q s) = Some s.
Proof.
  intros Hq HF. rewrite escape_direct by exact Hq.
  apply unesc_flat_map; auto. pose proof (flat_map_rc_len bytes q s). lia.
Qed.

End StrEscape.
