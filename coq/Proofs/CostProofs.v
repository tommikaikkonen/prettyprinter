(** C12 (printers): the document built for a dict whose value carries a
    comment contains the value's document TWICE ([pretty_dict] in
    prettyprinter.py, at "Rerender vdoc with plain multiline strategy": the
    value is printed again for the comment-above variant), so a chain of n
    such dicts yields a document with at least 2^n leaves: the work of the
    printers is exponential in the nesting depth for this family. *)
From Coq Require Import Lia.
From PP Require Import Doc PyVal Printers ValInd.

Fixpoint dleaves (d : doc) : nat :=
  match d with
  | Text _ => 1%nat
  | Cat l | Fill l => (fix sum (l : list doc) : nat := match l with [] => O | x :: tl => (dleaves x + sum tl)%nat end) l
  | Nest _ x | Group x | AlwaysBreak x | Annot _ x | Align x => dleaves x
  | FlatChoice b f | FCN b f => (dleaves b + dleaves f)%nat
  | _ => O
  end.

(** {'a': comment({'a': comment(... 0 ..., 'c')}, 'c')}  nested n times *)
Fixpoint nestc (n : nat) : pyval :=
  match n with
  | O => VInt 0
  | S k => VDict [(VStr [97]%N, VCommented (nestc k) [99]%N)] [0%nat]
  end.

Section Cost.
Variable sp lb : N -> bool.

Definition cx (m : mls) : pctx := mkCtx 4 None m 1000 false.

Lemma leaves_step (k vdoc vplain : doc) (c : str) (m : mls) :
  (dleaves vdoc + dleaves vplain <=
   dleaves (dict_d sp lb (cx m) None None [0%nat]
              (fun _ => [(k, Annot (AComment c) vdoc, fun _ : unit => vplain)])))%nat.
Proof.
  unfold dict_d, cx. cbn [depth_is0 c_depth c_maxlen c_sort is_some negb length].
  change (1000 <? Z.of_nat 1)%Z with false. cbn [take_z Z.leb Z.compare].
  cbn [dict_parts dict_part is_commented uncomment is_some orb].
  rewrite !Bool.orb_true_r. unfold bracket.
  destruct (is_commented k); cbn [dleaves c_indent app]; lia.
Qed.

(** a comment on a dict's value reaches the dict printer as an annotation around the value's document *)
Lemma nestc_commented n ctx c :
  pretty_pv sp lb (VCommented (nestc n) [c]) ctx None None
  = Annot (AComment [c]) (pretty_pv sp lb (nestc n) ctx None None).
Proof.
  cbn [pretty_pv truthy joinc]. destruct n; [reflexivity|]. cbn [nestc].
  change (VDict ?a ?b) with (osub None (VDict a b)). now rewrite !pretty_dict.
Qed.

Theorem commented_dicts_exponential : forall n m,
  (2 ^ n <= dleaves (pretty_pv sp lb (nestc n) (cx m) None None))%nat.
Proof.
  induction n as [|n IH]; intros m.
  - cbn. lia.
  - cbn [nestc]. change (VDict ?a ?b) with (osub None (VDict a b)). rewrite pretty_dict.
    cbn [finish truthy triples_ map]. rewrite !nestc_commented.
    pose proof (leaves_step (key_doc_ sp lb (cx m) (VStr [97%N])) (pretty_pv sp lb (nestc n) (cx MIndented) None None)
                  (Annot (AComment [99%N]) (pretty_pv sp lb (nestc n) (cx MPlain) None None)) [99%N] m) as H.
    cbn [dleaves] in H. pose proof (IH MIndented). pose proof (IH MPlain). cbn [Nat.pow].
    change (with_strategy (nested_call (cx m)) MIndented) with (cx MIndented).
    change (with_strategy (nested_call (cx m)) MPlain) with (cx MPlain). lia.
Qed.
End Cost.
