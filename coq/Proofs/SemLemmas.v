(** The reference semantics [Sem.Lay]: inversion in view form ([Lay_inv], and
    the same for the list relations), weakening and append lemmas, and
    [lay_all], the one induction behind every property of the stream that is
    read off node by node. *)
From PP Require Import Doc Sem DocInd.

Scheme Lay_mut := Minimality for Lay Sort Prop
  with LayList_mut := Minimality for LayList Sort Prop
  with LayFill_mut := Minimality for LayFill Sort Prop.

Section SemLemmas.
Variable evs : strp -> Z -> Z -> Z -> Z -> doc.
Variables w rw : Z.
Notation Lay := (Lay evs w rw).
Notation LayList := (LayList evs w rw).
Notation LayFill := (LayFill evs w rw).
Notation LayStk := (LayStk evs w rw).

(** the relations on lists are syntax directed *)
Lemma LayList_inv m i c l o c' : LayList m i c l o c' ->
  match l with
  | [] => o = [] /\ c' = c
  | d :: tl => exists o1 c1 o2, o = o1 ++ o2 /\ Lay m i c d o1 c1 /\ LayList m i c1 tl o2 c'
  end.
Proof. destruct 1; eauto 7. Qed.

Lemma LayStk_inv s c o c' : LayStk s c o c' ->
  match s with
  | [] => o = [] /\ c' = c
  | (i, m, d) :: rest => exists o1 c1 o2, o = o1 ++ o2 /\ Lay m i c d o1 c1 /\ LayStk rest c1 o2 c'
  end.
Proof. destruct 1; eauto 7. Qed.

Lemma Lay_weaken m i c d o c' : Lay MBreak i c d o c' -> Lay m i c d o c'.
Proof. destruct m; [easy|]. apply L_demote. Qed.

Lemma LayList_weaken m i c l o c' : LayList MBreak i c l o c' -> LayList m i c l o c'.
Proof.
  revert c o. induction l as [|x tl IH]; intros c o.
  - intros [-> ->]%LayList_inv. constructor.
  - intros (o1 & c1 & o2 & -> & H1 & H2%IH)%LayList_inv. econstructor; eauto using Lay_weaken.
Qed.

(** What a layout of [d] in mode [m] is, by the shape of [d]: apart from
    [L_demote], which only ever replaces [MFlat] by [MBreak] below, the
    relation is syntax directed. *)
Definition Lay_shape m i c d o c' : Prop :=
  match d with
  | Nil => o = [] /\ c' = c
  | Text s => o = txt s /\ c' = c + slen s
  | Cat l => LayList m i c l o c'
  | Nest j x => Lay m (i + j) c x o c'
  | Group x => Lay MFlat i c x o c'
  | AlwaysBreak x => Lay MBreak i c x o c'
  | FlatChoice b f | FCN b f =>
      Lay MBreak i c b o c' \/ m = MFlat /\ Lay MFlat i c f o c'
  | Fill l => LayFill i c l o c'
  | Annot a x => exists o', o = SPush a :: o' ++ [SPop a] /\ Lay m i c x o' c'
  | HardLine => o = [SLine i] /\ c' = i
  | Align x => Lay m i c (Nest (c - i) x) o c'
  | CtxS p => Lay m i c (evs p i c w rw) o c'
  | PopD a => o = [SPop a] /\ c' = c
  end.

Lemma Lay_inv m i c d o c' : Lay m i c d o c' -> Lay_shape m i c d o c'.
Proof.
  induction 1 as [i c d o c' _ IH| | | | | | | | | | | | | | | |]; cbn; eauto.
  (* [L_demote]: the shape is known in break mode, and every clause of it holds in flat mode too *)
  destruct d; cbn in *; eauto using L_demote, LayList_weaken.
  - (* FlatChoice *) destruct IH as [?|[[=] _]]; auto.
  - (* FCN *) destruct IH as [?|[[=] _]]; auto.
  - (* Annot *) destruct IH as (o' & -> & ?). eauto using L_demote.
Qed.

Lemma Lay_fcn_fc m i c b f o c' :
  Lay m i c (FCN b f) o c' -> Lay m i c (FlatChoice b f) o c'.
Proof.
  intros [H|[-> H]]%Lay_inv; [apply Lay_weaken, L_fc_break|apply L_fc_flat]; exact H.
Qed.

Lemma Lay_fc_fcn m i c b f o c' :
  Lay m i c (FlatChoice b f) o c' -> Lay m i c (FCN b f) o c'.
Proof.
  intros [H|[-> H]]%Lay_inv; [apply Lay_weaken, L_fcn_break|apply L_fcn_flat]; exact H.
Qed.

Lemma LayList_one m i c d o c' : LayList m i c [d] o c' <-> Lay m i c d o c'.
Proof.
  split.
  - intros (o1 & c1 & o2 & -> & H & [-> ->]%LayList_inv)%LayList_inv. now rewrite app_nil_r.
  - intros H. rewrite <- (app_nil_r o). econstructor; [exact H|constructor].
Qed.

Lemma LayStk_app s1 s2 c o c' :
  LayStk (s1 ++ s2) c o c' ->
  exists o1 c1 o2, o = o1 ++ o2 /\ LayStk s1 c o1 c1 /\ LayStk s2 c1 o2 c'.
Proof.
  revert c o. induction s1 as [|[[i m] d] tl IH]; intros c o H; cbn [app] in H.
  - exists [], c, o. repeat split; [constructor|exact H].
  - apply LayStk_inv in H as (o1 & c1 & ? & -> & Hd & (oa & ca & ob & -> & Ha & Hb)%IH).
    exists (o1 ++ oa), ca, ob. rewrite app_assoc. eauto using LS_cons.
Qed.

Lemma LayStk_push_all i m l c o c' :
  LayStk (map (fun x => (i, m, x)) l) c o c' <-> LayList m i c l o c'.
Proof.
  revert c o. induction l as [|x tl IH]; intros c o; cbn [map]; split.
  - intros [-> ->]%LayStk_inv. constructor.
  - intros [-> ->]%LayList_inv. constructor.
  - intros (o1 & c1 & o2 & -> & H1 & H2%IH)%LayStk_inv. econstructor; eauto.
  - intros (o1 & c1 & o2 & -> & H1 & H2%IH)%LayList_inv. econstructor; eauto.
Qed.

Lemma LayStk_one i m d c o c' : LayStk [(i, m, d)] c o c' -> Lay m i c d o c'.
Proof. intros H. apply LayList_one, LayStk_push_all, H. Qed.

Lemma LayList_app m i c l1 l2 o c' :
  LayList m i c (l1 ++ l2) o c' ->
  exists o1 c1 o2, o = o1 ++ o2 /\ LayList m i c l1 o1 c1 /\ LayList m i c1 l2 o2 c'.
Proof.
  intros H%LayStk_push_all. rewrite map_app in H.
  apply LayStk_app in H as (o1 & c1 & o2 & -> & H1%LayStk_push_all & H2%LayStk_push_all). eauto 6.
Qed.

Lemma Lay_unab m i c d o c' : Lay m i c d o c' -> Lay m i c (unab d) o c'.
Proof.
  revert m. induction d; intros m0 H; cbn [unab]; auto.
  apply IHd, Lay_weaken, (Lay_inv _ _ _ _ _ _ H).
Qed.

Lemma LayFill_cons mx i c d l o1 c1 o2 c2 :
  Lay mx i c d o1 c1 -> LayFill i c1 l o2 c2 -> LayFill i c (d :: l) (o1 ++ o2) c2.
Proof. intros H. apply LF_cons with mx. now apply Lay_unab. Qed.

End SemLemmas.

(** One induction over layouts for every property of the stream that is read
    off node by node: what is known of the document is a node test [q], what
    is known of the indentation an invariant [I] that the permitted nest
    offsets keep, and what is wanted of the stream a predicate [P] closed
    under the ways a layout is assembled. *)
Section LayAll.
Variable evs : strp -> Z -> Z -> Z -> Z -> doc.
Variables w rw : Z.
Variable q : doc -> bool.
Variable I : Z -> Prop.
Variable P : list sdoc -> Prop.

Hypothesis q_evs : forall p i c, q (CtxS p) = true -> dall q (evs p i c w rw) = true.
Hypothesis q_align : forall j d, q (Align d) = true -> q (Nest j d) = true.
Hypothesis I_nest : forall i j d, q (Nest j d) = true -> I i -> I (i + j).

Hypothesis P_nil : P [].
Hypothesis P_text : forall s, P [SText s].
Hypothesis P_line : forall i, I i -> P [SLine i].
Hypothesis P_pop : forall a, q (PopD a) = true -> P [SPop a].
Hypothesis P_app : forall a b, P a -> P b -> P (a ++ b).
Hypothesis P_wrap : forall a o, P o -> P (SPush a :: o ++ [SPop a]).

Theorem lay_all :
  forall m i c d o c', Lay evs w rw m i c d o c' -> dall q d = true -> I i -> P o.
Proof.
  intros m i c d o c' H.
  induction H using Lay_mut with
    (P0 := fun m i c l o c' => forallb (dall q) l = true -> I i -> P o)
    (P1 := fun i c l o c' => forallb (dall q) l = true -> I i -> P o);
    rewrite ?dall_cat, ?dall_fill; cbn [dall forallb]; intros;
    repeat match goal with H : (_ && _)%bool = true |- _ => apply andb_prop in H as [? ?] end;
    auto using dall_unab.
  - destruct s; [apply P_nil|apply P_text].
  - (* nest: the one place where the invariant moves, by [I_nest] *) eauto.
  - (* align: the offset is whatever the column makes it *)
    apply IHLay; [cbn [dall]|assumption]. eauto using andb_true_intro.
Qed.

End LayAll.
