(** C06: completeness of the fitting predicates on single-line runs, and
    stability of single-line layouts under every width/ribbon >= their length.

    Algebra ("no forced break"): text, concat, nest (offset >= 0: a group's
    ribbon budget is [i + rw - col], so room in the ribbon for a line needs the
    indentation [i] not to fall below zero), group,
    line/softline (flat_choice with a hardline as broken branch), annotate and,
    on the stack, its pops.  No always_break, align, fill, contextual.  A bare
    hardline belongs to it because a line in break mode puts one on the stack;
    a run without a line break never executes one. *)
From Coq Require Import Lia.
From PP Require Import Doc Normalize Layout DocInd NormEq Machine Classic FirstLine.

Section SingleLine.
Variable evs : strp -> Z -> Z -> Z -> Z -> doc.

Fixpoint plainc (d : doc) : bool :=
  match d with
  | Nil | Text _ | HardLine | PopD _ => true
  | Cat l => (fix all (l : list doc) : bool :=
                match l with [] => true | x :: tl => plainc x && all tl end) l
  | Nest j x => (0 <=? j) && plainc x
  | Group x | Annot _ x => plainc x
  | FlatChoice b f | FCN b f => is_hard b && plainc f
  | AlwaysBreak _ | Align _ | Fill _ | CtxS _ => false
  end.

Lemma plainc_cat l : plainc (Cat l) = forallb plainc l.
Proof. reflexivity. Qed.

Definition plain_stk (s : list triple) : Prop :=
  Forall (fun t => plainc (snd t) = true /\ 0 <= fst (fst t)) s.

(** no line break in a stream; total text width *)
Fixpoint nosl (l : list sdoc) : bool :=
  match l with [] => true | SLine _ :: _ => false | _ :: tl => nosl tl end.
Fixpoint tw (l : list sdoc) : Z :=
  match l with [] => 0 | SText s :: tl => slen s + tw tl | _ :: tl => tw tl end.

Lemma tw_nonneg l : 0 <= tw l.
Proof. induction l as [|x tl IH]; cbn [tw]; [lia|]. destruct x; try lia. pose proof (slen_nonneg s). lia. Qed.

(** look-ahead stack vs machine stack: same entries, the machine may be in
    break mode where the look-ahead is flat, and carries the pending
    annotation pops the look-ahead never pushes *)
Inductive RS : list triple -> list triple -> Prop :=
| RS_nil : RS [] []
| RS_cons i mf mm d F M : mle mm mf -> RS F M -> RS ((i, mf, d) :: F) ((i, mm, d) :: M)
| RS_pop i m a F M : RS F M -> RS F ((i, m, PopD a) :: M).

Lemma RS_refl s : RS s s.
Proof. induction s as [|[[i m] d] tl IH]; constructor; auto. now left. Qed.

Lemma plain_stk_cons i m d M : plainc d = true -> 0 <= i -> plain_stk M -> plain_stk ((i, m, d) :: M).
Proof. constructor; auto. Qed.

Lemma plain_stk_push i m l rest :
  plainc (Cat l) = true -> 0 <= i -> plain_stk rest -> plain_stk (push_all i m l rest).
Proof.
  rewrite plainc_cat, forallb_forall. intros Hl Hi Hr. apply Forall_push_all; [|exact Hr]. auto.
Qed.

Lemma hard_contra ff sm w0 rw0 fuel i m M col o new :
  layout_loop evs fuel ff sm w0 rw0 (mkL ((i, m, HardLine) :: M) col o) = Some (rev o ++ new) ->
  nosl new = true -> False.
Proof.
  intros HL Hn. destruct fuel as [|fuel]; [discriminate|].
  cbn [layout_loop layout_step ls_stk ls_col ls_out] in HL.
  apply emit_inv in HL as (new' & -> & _). discriminate.
Qed.

Lemma single_line_complete ff sm w0 rw0 : forall fuel M col o new F smart w rw mnl maxw cl,
  layout_loop evs fuel ff sm w0 rw0 (mkL M col o) = Some (rev o ++ new) ->
  nosl new = true -> tw new <= cl ->
  RS F M -> Forall (fun t => plainc (snd t) = true) M ->
  exists nf, fits_loop evs nf smart w rw mnl maxw cl F = Some true.
Proof.
  induction fuel as [|fuel IH]; intros M col o new F smart w rw mnl maxw cl HL Hn Ht HR HP;
    [discriminate|].
  assert (Hcl : (cl <? 0) = false) by (apply Z.ltb_ge; pose proof (tw_nonneg new); lia).
  (* but for a pop that the machine alone has, the look-ahead takes one iteration as well *)
  destruct HR as [|i mf mm d F M Hm HR|i m a F M HR];
    [apply fits_true_step; unfold fits_step; rewrite Hcl..|].
  - exact I.
  - apply Forall_cons_iff in HP as [Hp HP']. cbn [snd] in Hp.
    destruct d as [ |s|l|j x|x|x|b f|b f|l|a x| |x|p|a]; cbn [plainc] in Hp; try discriminate;
      cbn [layout_loop layout_step ls_stk ls_col ls_out] in HL.
    + (* Nil *) eapply IH; eauto.
    + (* Text *)
      apply emit_inv in HL as (new' & -> & HL). cbn [nosl tw] in Hn, Ht. eapply IH; eauto; lia.
    + (* Cat *)
      eapply IH; eauto; [apply push_all_rel; auto using RS_cons|].
      change (plainc (Cat l) = true) in Hp. rewrite plainc_cat, forallb_forall in Hp.
      now apply Forall_push_all.
    + (* Nest *) apply andb_prop in Hp as [_ Hx]. eapply IH; eauto using RS_cons.
    + (* Group *)
      destruct (fits evs ff sm w0 rw0 _ _ _) as [[|]|]; [| |discriminate];
        eapply IH; eauto using RS_cons, mle_flat.
    + (* FlatChoice: a line or softline; broken in the machine it would end the line *)
      apply andb_prop in Hp as [->%is_hard_eq Hf].
      destruct mm; [exfalso; eapply hard_contra; eauto|]. destruct Hm as [<-|]; [|discriminate].
      eapply IH; eauto using RS_cons, mle_refl.
    + (* FCN *)
      apply andb_prop in Hp as [->%is_hard_eq Hf].
      destruct mm; [exfalso; eapply hard_contra; eauto|]. destruct Hm as [<-|]; [|discriminate].
      eapply IH; eauto using RS_cons, mle_refl.
    + (* Annot *)
      apply emit_inv in HL as (new' & -> & HL). eapply IH; eauto using RS_cons, RS_pop.
    + (* HardLine *) apply emit_inv in HL as (new' & -> & _). discriminate.
    + (* PopD, also on the look-ahead stack *)
      apply emit_inv in HL as (new' & -> & HL). eapply IH; eauto.
  - (* a pending pop the look-ahead does not have *)
    apply Forall_cons_iff in HP as [_ HP']. cbn [layout_loop layout_step ls_stk ls_col ls_out] in HL.
    apply emit_inv in HL as (new' & -> & HL). eapply IH; eauto.
Qed.

Lemma single_line_fits ff sm w0 rw0 : forall fuel M col o new F smart w rw mnl maxw cl,
  layout_loop evs fuel ff sm w0 rw0 (mkL M col o) = Some (rev o ++ new) ->
  nosl new = true -> tw new <= cl ->
  RS F M -> plain_stk M ->
  exists nf, fits_loop evs nf smart w rw mnl maxw cl F = Some true.
Proof.
  intros fuel M col o new F smart w rw mnl maxw cl HL Hn Ht HR HP.
  eapply single_line_complete; eauto. eapply Forall_impl; [|exact HP]. now intros t [].
Qed.

(** Stability: the algebra is closed under normalisation, and a run whose width and
    ribbon leave room for the single line of another run decides every group flat:
    completeness, applied to the other run's continuation.  The other run may have
    broken a group; then no line or softline stood directly under it. *)

Lemma plainc_contrib nd : plainc nd = true -> forallb plainc (fst (contrib nd)) = true.
Proof.
  destruct nd; cbn [contrib fst forallb]; intros H; rewrite ?andb_true_r;
    try exact H; try reflexivity; try discriminate.
Qed.

Lemma plainc_no_ab_prop l :
  Forall (fun d => plainc d = true -> plainc (normalize_doc d) = true) l ->
  forallb plainc l = true -> cat_prop l = false.
Proof.
  induction 1 as [|x tl Hx Htl IH]; intros Hc; [reflexivity|].
  apply andb_prop in Hc as [Hcx Hct].
  cbn [cat_prop existsb]. fold (cat_prop tl). rewrite (IH Hct), orb_false_r.
  specialize (Hx Hcx). destruct (normalize_doc x); try reflexivity. discriminate.
Qed.

Lemma plainc_normalize : forall d, plainc d = true -> plainc (normalize_doc d) = true.
Proof.
  (* the three [try]s: not plain; left as it is; group and annotate, which go back around
     the normalised child, no always_break *)
  induction d using doc_ind'; intros Hc; try (cbn in Hc; discriminate); try exact Hc;
    try (specialize (IHd Hc); cbn [normalize_doc]; destruct (normalize_doc d); now try exact IHd).
  - destruct s; reflexivity.
  - rewrite normalize_cat. rewrite plainc_cat in Hc.
    pose proof (cat_items_all plainc l plainc_contrib H Hc) as Hi. pose proof (plainc_no_ab_prop l H Hc) as Hp.
    unfold cat_finish. rewrite Hp. destruct (cat_items l) as [|x [|y tl]]; [reflexivity| |].
    + now apply andb_prop in Hi as [Hx _].
    + rewrite plainc_cat. exact Hi.
  - cbn [plainc] in Hc. apply andb_prop in Hc as [Hj Hx]. specialize (IHd Hx). cbn [normalize_doc].
    destruct (normalize_doc d); cbn [plainc] in *; try discriminate; rewrite ?Hj; auto.
Qed.

(** The stack of the second run beside the first's: the same entries, some of them
    flat where the first's are broken. *)
Inductive Rm : list triple -> list triple -> Prop :=
| Rm_nil : Rm [] []
| Rm_cons i m m0 d M M0 : mle m0 m -> Rm M M0 -> Rm ((i, m, d) :: M) ((i, m0, d) :: M0).

Lemma Rm_RS M M0 : Rm M M0 -> RS M M0.
Proof. induction 1; now constructor. Qed.

Lemma stable_loop ff0 sm0 w0 rw0 ff sm w rw L : L <= w -> L <= rw ->
  forall fuel0 M0 M col o new,
  layout_loop evs fuel0 ff0 sm0 w0 rw0 (mkL M0 col o) = Some (rev o ++ new) ->
  nosl new = true -> col + tw new <= L -> plain_stk M0 -> Rm M M0 ->
  forall fuel out, layout_loop evs fuel ff sm w rw (mkL M col o) = Some out -> out = rev o ++ new.
Proof.
  intros Hw Hr.
  induction fuel0 as [|fuel0 IH]; intros M0 M col o new HL0 Hn Ht HP HR fuel out HL; [discriminate|].
  destruct fuel as [|fuel]; [discriminate|].
  destruct HR as [|i m m0 d M M0 Hm HR].
  { cbn in HL0, HL. congruence. }
  apply Forall_cons_iff in HP as [[Hp Hi] HP']. cbn [fst snd] in Hp, Hi.
  destruct d as [ |s|l|j x|x|x|b f|b f|l|a x| |x|p|a]; cbn [plainc] in Hp; try discriminate;
    cbn [layout_loop layout_step ls_stk ls_col ls_out] in HL0, HL.
  - (* Nil *) eauto.
  - (* Text *)
    apply emit_inv in HL0 as (new' & -> & HL0). cbn [nosl tw] in Hn, Ht.
    rewrite <- rev_cons_app. eapply IH; eauto; lia.
  - (* Cat *) eapply IH; eauto; [now apply plain_stk_push|apply push_all_rel; auto using Rm_cons].
  - (* Nest *)
    apply andb_prop in Hp as [Hj Hx].
    eapply IH; eauto using Rm_cons. apply plain_stk_cons; auto; lia.
  - (* Group: whichever way the first run went on, its single line makes the second decide flat *)
    assert (exists mb, layout_loop evs fuel0 ff0 sm0 w0 rw0 (mkL ((i, mb, x) :: M0) col o) = Some (rev o ++ new))
      as [mb HLb] by (destruct (fits evs ff0 sm0 w0 rw0 _ _ _) as [[|]|]; [eauto..|discriminate]).
    destruct (fits evs ff sm w rw _ _ _) as [b|] eqn:E; [|discriminate].
    assert (b = true) as ->.
    { eapply single_line_fits with (F := (i, MFlat, x) :: M) (cl := avail w rw col i) in HLb as [nf Hf];
        [symmetry; eapply fits_loop_det; eauto|exact Hn|unfold avail; lia| |now apply plain_stk_cons].
      apply RS_cons; [apply mle_flat|now apply Rm_RS]. }
    eapply IH; eauto using Rm_cons, mle_flat. now apply plain_stk_cons.
  - (* FlatChoice: broken in the first run it would end the line *)
    apply andb_prop in Hp as [->%is_hard_eq Hf].
    destruct m0; [exfalso; eapply hard_contra; eauto|]. destruct Hm as [<-|]; [|discriminate].
    eapply IH; eauto using Rm_cons, mle_refl. now apply plain_stk_cons.
  - (* FCN *)
    apply andb_prop in Hp as [->%is_hard_eq Hf].
    destruct m0; [exfalso; eapply hard_contra; eauto|]. destruct Hm as [<-|]; [|discriminate].
    eapply IH; eauto using Rm_cons, mle_refl. now apply plain_stk_cons.
  - (* Annot *)
    apply emit_inv in HL0 as (new' & -> & HL0).
    rewrite <- rev_cons_app. eapply IH; eauto using Rm_cons. repeat apply plain_stk_cons; auto.
  - (* HardLine *) apply emit_inv in HL0 as (new' & -> & _). discriminate.
  - (* PopD *)
    apply emit_inv in HL0 as (new' & -> & HL0).
    rewrite <- rev_cons_app. eapply IH; eauto.
Qed.

(** [w0] and [rw0] are arbitrary: the first run need not have had room for its line. *)
Theorem single_line_stable d fuel0 ff0 sm0 w0 rw0 out0 :
  plainc d = true ->
  best_layout evs fuel0 ff0 sm0 w0 rw0 d = Some out0 -> nosl out0 = true ->
  forall w rw fuel ff sm out, tw out0 <= w -> tw out0 <= rw ->
    best_layout evs fuel ff sm w rw d = Some out -> out = out0.
Proof.
  intros Hp H0 Hn w rw fuel ff sm out Hw Hr H.
  eapply (stable_loop ff0 sm0 w0 rw0 ff sm w rw (tw out0)) with (o := []) (new := out0); eauto; [lia| |].
  - apply plain_stk_cons; [now apply plainc_normalize|lia|constructor].
  - constructor; [apply mle_refl|constructor].
Qed.

End SingleLine.
