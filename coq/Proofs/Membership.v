(** C04: whatever the layout machine emits is one of the layouts the document
    denotes.  First: every layout of the normalised document is a layout of
    the document - flattening, NIL removal, '' removal and always_break
    hoisting never add layouts (lenient semantics, Sem.v).  Then the machine:
    the proof never looks inside the fitting predicates; the decision of a
    group / fill item may be arbitrary. *)
From PP Require Import Tac Doc Normalize Layout Sem DocInd NormEq Machine SemLemmas.

Section Membership.
Variable evs : strp -> Z -> Z -> Z -> Z -> doc.
Variables w rw : Z.
Notation Lay := (Lay evs w rw).
Notation LayList := (LayList evs w rw).
Notation LayFill := (LayFill evs w rw).

(** normalising [d] adds no layouts *)
Definition NS (d : doc) : Prop :=
  forall m i c o c', Lay m i c (normalize_doc d) o c' -> Lay m i c d o c'.

Lemma Lay_hoisted (b : bool) m i c x o c' :
  Lay m i c (if b then AlwaysBreak x else x) o c' -> Lay (if b then MBreak else m) i c x o c'.
Proof. destruct b; [apply Lay_inv|auto]. Qed.

Lemma Lay_weaken_if (b : bool) m i c d o c' :
  Lay (if b then MBreak else m) i c d o c' -> Lay m i c d o c'.
Proof. destruct b; [apply Lay_weaken|auto]. Qed.

Lemma contrib_sound nd m i c o c' :
  (snd (contrib nd) = true -> m = MBreak) ->
  LayList m i c (fst (contrib nd)) o c' -> Lay m i c nd o c'.
Proof.
  intros Hm H.
  destruct nd; cbn [contrib fst snd] in *; try (apply LayList_one; exact H).
  - apply LayList_inv in H as [-> ->]. constructor.
  - now constructor.
  - rewrite (Hm eq_refl) in *. now apply L_ab, LayList_one.
Qed.

Lemma cat_go_sound l : Forall NS l ->
  forall m i c o c',
    (cat_prop l = true -> m = MBreak) ->
    LayList m i c (cat_items l) o c' -> LayList m i c l o c'.
Proof.
  induction 1 as [|x tl Hx Htl IH]; intros m i c o c' Hm H.
  - exact H.
  - cbn [cat_items cat_prop flat_map existsb] in *.
    apply LayList_app in H as (o1 & c1 & o2 & -> & H1 & H2).
    econstructor.
    + apply Hx, contrib_sound; [intros E; apply Hm; now rewrite E | exact H1].
    + apply IH; auto. intros E. apply Hm. unfold cat_prop in E. rewrite E. apply orb_true_r.
Qed.

Lemma normalize_cat_sound l : Forall NS l -> NS (Cat l).
Proof.
  intros HF m i c o c'. rewrite normalize_cat. intros H.
  (* a hoisted always_break lays the whole concat out in break mode: the mode
     in which the children that lost their always_break must be laid out *)
  apply (Lay_weaken_if (cat_prop l)). constructor.
  apply (cat_go_sound l HF); [destruct (cat_prop l); [reflexivity|discriminate]|].
  destruct (cat_items l) as [|x [|y tl]].
  - apply Lay_inv in H as [-> ->]. constructor.
  - apply LayList_one, Lay_hoisted, H.
  - apply Lay_hoisted, Lay_inv in H. exact H.
Qed.

Lemma LayFill_head x y l l' i c o c' :
  unab x = unab y -> (forall c o, LayFill i c l o c' -> LayFill i c l' o c') ->
  LayFill i c (x :: l) o c' -> LayFill i c (y :: l') o c'.
Proof. intros E Hl H. inv H. econstructor; [rewrite <- E; eassumption|auto]. Qed.

Lemma LayFill_skip x l i c o c' :
  unab x = Nil -> LayFill i c l o c' -> LayFill i c (x :: l) o c'.
Proof.
  intros E H. apply (LF_cons evs w rw MBreak i c x l [] c); [rewrite E; constructor|exact H].
Qed.

Lemma fill_go_sound l i c o c' :
  LayFill i c (fill_items l) o c' -> LayFill i c l o c'.
Proof.
  revert c o. induction l as [|x tl IH]; intros c o H; [exact H|].
  cbn [fill_items flat_map] in H.
  destruct x as [ | | | | |y| | | | | | | | ]; cbn [fill_contrib fst app] in H;
    try (revert H; apply LayFill_head; [reflexivity|exact IH]).
  - apply LayFill_skip; auto.
  - destruct (is_nil y) eqn:E; cbn [app] in H.
    + destruct y; try discriminate. apply LayFill_skip; auto.
    + revert H. apply LayFill_head; [reflexivity|exact IH].
Qed.

Lemma normalize_fill_sound l : NS (Fill l).
Proof.
  intros m i c o c'. rewrite normalize_fill. intros H.
  constructor. apply fill_go_sound. destruct (fill_items l) as [|x tl].
  - apply Lay_inv in H as [-> ->]. constructor.
  - apply Lay_hoisted, Lay_inv in H. exact H.
Qed.

Theorem normalize_sound : forall d, NS d.
Proof.
  induction d using doc_ind'; try (now apply normalize_cat_sound); try apply normalize_fill_sound;
    unfold NS in *; intros m j c o c'; cbn [normalize_doc]; try (intros H; exact H).
  - (* Text: '' becomes NIL *)
    destruct s; [|intros H; exact H]. intros [-> ->]%Lay_inv.
    pose proof (L_text evs w rw m j c []) as E. now rewrite Z.add_0_r in E.
  - (* Nest *)
    intros H. constructor. destruct (normalize_doc d); try (apply IHd; apply Lay_inv in H; exact H).
    do 2 apply Lay_inv in H. apply IHd. now constructor.
  - (* Group *)
    intros H. constructor. destruct (normalize_doc d); try (apply IHd; apply Lay_inv in H; exact H).
    + apply IHd. apply Lay_inv in H as [-> ->]. apply L_nil.
    + apply IHd, L_demote. apply Lay_inv in H. now constructor.
  - (* AlwaysBreak *)
    intros H. constructor. destruct (normalize_doc d); try (apply IHd; apply Lay_inv in H; exact H).
    apply IHd. apply Lay_inv in H. now constructor.
  - (* FlatChoice *) apply Lay_fcn_fc.
  - (* Annot *)
    destruct (normalize_doc d);
      try (intros (o' & -> & H)%Lay_inv; constructor; now apply IHd).
    intros (o' & -> & H)%Lay_inv%Lay_inv. constructor. apply IHd. now constructor.
Qed.

Notation LayStk := (LayStk evs w rw).

Lemma strip_app l1 l2 : strip (l1 ++ l2) = strip l1 ++ strip l2.
Proof. apply filter_app. Qed.

Lemma strip_text s : strip [SText s] = txt s.
Proof. destruct s; reflexivity. Qed.

(** One step replaces the top entry [(i, m, d)] by entries [ts], after emitting
    [e]; whatever [ts] can still produce, preceded by [e], is a layout of [d].
    The answers of the fitting predicates are not looked at: either mode of a
    group or fill item is a layout. *)
Definition head_ok (st st' : lstate) : Prop :=
  match ls_stk st with
  | [] => False
  | (i, m, d) :: rest =>
      exists e ts col',
        st' = mkL (ts ++ rest) col' (rev e ++ ls_out st) /\
        forall o c1, LayStk ts col' o c1 -> Lay m i (ls_col st) d (strip e ++ o) c1
  end.

Lemma head_leaf e col' i m d col rest out :
  Lay m i col d (strip e) col' ->
  head_ok (mkL ((i, m, d) :: rest) col out) (mkL rest col' (rev e ++ out)).
Proof.
  intros H. exists e, [], col'. split; [reflexivity|].
  intros o c1 [-> ->]%LayStk_inv. now rewrite app_nil_r.
Qed.

Lemma head_one i' m' d' i m d col rest out :
  (forall o c1, Lay m' i' col d' o c1 -> Lay m i col d o c1) ->
  head_ok (mkL ((i, m, d) :: rest) col out) (mkL ((i', m', d') :: rest) col out).
Proof.
  intros H. exists [], [(i', m', d')], col. split; [reflexivity|].
  intros o c1 H1%LayStk_one. now apply H.
Qed.

Lemma head_fill ts i m l col rest out :
  (forall c o c1, LayStk ts c o c1 -> LayFill i c l o c1) ->
  head_ok (mkL ((i, m, Fill l) :: rest) col out) (mkL (ts ++ rest) col out).
Proof.
  intros H. exists [], ts, col. split; [reflexivity|]. intros o c1 Hs. apply L_fill, H, Hs.
Qed.

Lemma fill_push i mx x ts l :
  (forall c o c1, LayStk ts c o c1 -> LayFill i c l o c1) ->
  forall c o c1, LayStk ((i, mx, x) :: ts) c o c1 -> LayFill i c (x :: l) o c1.
Proof. intros Hl c o c1 (o1 & c2 & o2 & -> & Hx & Hts)%LayStk_inv. eauto using LayFill_cons. Qed.

Lemma fill_done i c o c1 : LayStk [] c o c1 -> LayFill i c [] o c1.
Proof. intros [-> ->]%LayStk_inv. constructor. Qed.

Lemma head_sound ff smart st :
  match layout_step evs ff smart w rw st with LCont st' => head_ok st st' | _ => True end.
Proof.
  destruct st as [[|[[i m] d] rest] col out]; [exact I|].
  unfold layout_step. cbn [ls_stk ls_col ls_out].
  destruct d as [ |s|l|j d|d|d|b f|b f|l|a d| |d|p|a].
  - (* Nil *) apply (head_leaf []). constructor.
  - (* Text *) apply (head_leaf [SText s]). rewrite strip_text. constructor.
  - (* Cat *) exists [], (map (fun x => (i, m, x)) l), col. split; [reflexivity|].
    intros o c1 H%LayStk_push_all. now constructor.
  - (* Nest *) apply head_one. now constructor.
  - (* Group *)
    destruct (fits _ _ _ _ _ _ _ _) as [[|]|]; [| |exact I]; apply head_one;
      intros o c1 H; apply L_group; [|apply L_demote]; exact H.
  - (* AlwaysBreak *) apply head_one. now constructor.
  - (* FlatChoice *) apply head_one. intros o c1 H.
    destruct m; [apply L_fc_break|apply L_fc_flat]; exact H.
  - (* FCN *) apply head_one. intros o c1 H.
    destruct m; [apply L_fcn_break, normalize_sound|apply L_fcn_flat]; exact H.
  - (* Fill: each item in the mode chosen for it, the remainder as a fill *)
    destruct l as [|x [|y [|z tl]]].
    + apply (head_fill []), fill_done.
    + destruct (fits _ _ _ _ _ _ _ _) as [fx|]; [|exact I].
      apply (head_fill [_]), fill_push, fill_done.
    + destruct (fits _ _ _ _ _ _ _ _) as [fx|]; [|exact I].
      apply (head_fill [_; _]). do 2 apply fill_push. apply fill_done.
    + destruct (fits _ _ _ _ _ _ _ _) as [fx|]; [|exact I].
      destruct (fits _ _ _ _ _ _ _ _) as [fxy|]; [|exact I].
      apply (head_fill [_; _; _]). do 2 apply fill_push.
      intros c o c1 H%LayStk_one%Lay_inv. exact H.
  - (* Annot *) exists [SPush a], [(i, m, d); (i, m, PopD a)], col. split; [reflexivity|].
    intros o c1 (o1 & c2 & o2 & -> & Hd & [-> ->]%LayStk_one%Lay_inv)%LayStk_inv.
    now constructor.
  - (* HardLine *) apply (head_leaf [SLine i]). constructor.
  - (* Align *) apply head_one. intros o c1 H. constructor. now apply normalize_sound.
  - (* CtxS *) apply head_one. intros o c1 H. constructor. now apply normalize_sound.
  - (* PopD *) apply (head_leaf [SPop a]). constructor.
Qed.

(** The invariant of the main loop, read backwards from the result [out] of the
    run: [out] is what [st] has emitted so far, then a layout of its stack. *)
Definition completes (st : lstate) (out : list sdoc) : Prop :=
  exists o c', LayStk (ls_stk st) (ls_col st) o c' /\ strip out = strip (rev (ls_out st)) ++ o.

Lemma head_completes st st' out : head_ok st st' -> completes st' out -> completes st out.
Proof.
  destruct st as [[|[[i m] d] rest] col out0]; [easy|].
  intros (e & ts & col' & -> & Hd) (o & c' & (o1 & c1 & o2 & -> & H1 & H2)%LayStk_app & Ho).
  exists ((strip e ++ o1) ++ o2), c'. split; [eauto using LS_cons|].
  cbn [ls_out] in *. now rewrite Ho, rev_app_distr, rev_involutive, strip_app, <- !app_assoc.
Qed.

Lemma loop_sound ff smart fuel : forall st out,
  layout_loop evs fuel ff smart w rw st = Some out -> completes st out.
Proof.
  induction fuel as [|fuel IH]; intros st out E; [discriminate|]. cbn [layout_loop] in E.
  pose proof (step_out evs ff smart w rw st) as Ho. pose proof (head_sound ff smart st) as Hh.
  destruct (layout_step evs ff smart w rw st) as [out0|st'|]; [| |discriminate].
  - inv E. destruct Ho as [Es ->]. exists [], (ls_col st). rewrite Es, app_nil_r. split; [constructor|reflexivity].
  - eauto using head_completes.
Qed.

Theorem membership fuel ff smart d out :
  best_layout evs fuel ff smart w rw d = Some out ->
  exists c', Lay MBreak 0 0 d (strip out) c'.
Proof.
  intros (o & c' & HS%LayStk_one & ->)%loop_sound.
  exists c'. now apply normalize_sound.
Qed.

End Membership.
