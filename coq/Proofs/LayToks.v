(** Bridge between the two halves of the development: every layout (Sem.Lay)
    of a document whose token projection is [ts] (PyExpr.DT) carries, as an
    SDoc stream, exactly the tokens [ts] - for documents without the
    contextual string printer.  Together with C04_membership: the stream the
    layout engine really emits has those tokens. *)

From PP Require Import Tac Doc PyExpr Sem DocInd SemLemmas AnnotProofs.

(** tokens of an SDoc stream: text under a syntax-token annotation is one
    token of that class, everything under COMMENT_SINGLE (class 14,
    [Printers.T_COMMENT_SINGLE]) is skipped, blank text and line breaks are
    skipped, other text is opaque *)
Inductive tmode := MNormal | MTok (t : N) (acc : str) | MCom (depth : nat).

Fixpoint stoks (l : list sdoc) (m : tmode) : list token :=
  match l with
  | [] => []
  | x :: tl =>
      match m, x with
      | MNormal, SText s => if ws_only s then stoks tl MNormal else TRepr s :: stoks tl MNormal
      | MNormal, SLine _ => stoks tl MNormal
      | MNormal, SPush (ATok t) => if (t =? 14)%N then stoks tl (MCom 1) else stoks tl (MTok t [])
      | MNormal, SPush _ => stoks tl MNormal
      | MNormal, SPop _ => stoks tl MNormal
      | MTok t acc, SText s => stoks tl (MTok t (acc ++ s))
      | MTok t acc, SPop _ => tok_of t acc :: stoks tl MNormal
      | MTok t acc, _ => stoks tl (MTok t acc)
      | MCom d, SPush _ => stoks tl (MCom (S d))
      | MCom d, SPop _ => match d with 1%nat | O => stoks tl MNormal | S d' => stoks tl (MCom d') end
      | MCom d, _ => stoks tl (MCom d)
      end
  end.

(** documents without the contextual string printer and without layout-stack
    residue *)
Fixpoint clean (d : doc) : bool :=
  match d with
  | Nil | Text _ | HardLine => true
  | Cat l | Fill l => (fix all (l : list doc) : bool := match l with [] => true | x :: tl => clean x && all tl end) l
  | Nest _ x | Group x | AlwaysBreak x | Annot _ x | Align x => clean x
  | FlatChoice b f | FCN b f => clean b && clean f
  | CtxS _ | PopD _ => false
  end.

Lemma clean_list l : (fix all (l : list doc) : bool := match l with [] => true | x :: tl => clean x && all tl end) l = forallb clean l.
Proof. reflexivity. Qed.

Definition cleanq (d : doc) : bool := match d with CtxS _ | PopD _ => false | _ => true end.
Lemma clean_dall : forall d, clean d = dall cleanq d.
Proof. apply dall_unique. intros []; reflexivity. Qed.
Lemma clean_unab d : clean d = true -> clean (unab d) = true.
Proof. rewrite !clean_dall. apply dall_unab. Qed.

Section Bridge.
Variable evs : strp -> Z -> Z -> Z -> Z -> doc.
Variables w rw : Z.

Lemma lay_clean_wn :
  forall m i c d o c', Lay evs w rw m i c d o c' -> clean d = true -> WN o.
Proof.
  intros m i c d o c' H Hd. rewrite clean_dall in Hd.
  (* left: [q_evs] and [P_pop] ask nothing, no contextual document and no pop passes [cleanq] *)
  apply (lay_all evs w rw cleanq (fun _ => True) WN) with m i c d c'; auto using WN; discriminate.
Qed.

Lemma wn_scom o : WN o -> forall k rest, stoks (o ++ rest) (MCom (S k)) = stoks rest (MCom (S k)).
Proof.
  induction 1; intros k rest; try reflexivity.
  - rewrite <- app_assoc. now rewrite IHWN1, IHWN2.
  - cbn [app stoks]. now rewrite <- app_assoc, IHWN.
Qed.

Lemma DT_unab d ts : DT d ts -> DT (unab d) ts.
Proof.
  revert ts. induction d; intros ts H; cbn [unab]; auto. inv H. auto.
Qed.

(** [o] reads as [ts] whatever follows it: stated over the rest of the stream,
    so that it composes along the ways a layout is assembled ([tok_app] ..) *)
Definition Tok (o : list sdoc) (ts : list token) : Prop :=
  forall rest, stoks (o ++ rest) MNormal = ts ++ stoks rest MNormal.

Lemma tok_whole o ts : Tok o ts -> stoks o MNormal = ts.
Proof. intros H. specialize (H []). now rewrite !app_nil_r in H. Qed.

Lemma tok_nil : Tok [] [].
Proof. intros rest. reflexivity. Qed.
Lemma tok_line i : Tok [SLine i] [].
Proof. intros rest. reflexivity. Qed.
Lemma tok_ws s : ws_only s = true -> Tok (txt s) [].
Proof. intros E rest. destruct s; [reflexivity|]. cbn [txt app stoks]. now rewrite E. Qed.
Lemma tok_text s : ws_only s = false -> Tok (txt s) [TRepr s].
Proof. intros E rest. destruct s; [discriminate|]. cbn [txt app stoks]. now rewrite E. Qed.
Lemma tok_app a b ta tb : Tok a ta -> Tok b tb -> Tok (a ++ b) (ta ++ tb).
Proof. intros Ha Hb rest. rewrite <- app_assoc, (Ha (b ++ rest)), (Hb rest). apply app_assoc. Qed.
Lemma tok_comment o : WN o -> Tok (SPush (ATok 14) :: o ++ [SPop (ATok 14)]) [].
Proof. intros H rest. cbn [app stoks N.eqb Pos.eqb]. now rewrite <- app_assoc, wn_scom. Qed.
Lemma tok_tok t s : t <> 14%N -> Tok (SPush (ATok t) :: txt s ++ [SPop (ATok t)]) [tok_of t s].
Proof.
  intros Ht rest. cbn [app stoks]. apply N.eqb_neq in Ht. rewrite Ht. now destruct s.
Qed.
Lemma tok_acomment c o ts : Tok o ts -> Tok (SPush (AComment c) :: o ++ [SPop (AComment c)]) ts.
Proof. intros H rest. cbn [app stoks]. now rewrite <- app_assoc, H. Qed.

Theorem lay_tokens :
  forall m i c d o c', Lay evs w rw m i c d o c' -> forall ts, DT d ts -> clean d = true -> Tok o ts.
Proof.
  intros m i c d o c' H.
  (* [DT] has no rule for a lazily normalised choice, an align or a pop: those cases
     go with the inversion of the projection *)
  induction H using Lay_mut with
    (P0 := fun m i c l o c' => forall ts, DTL l ts -> forallb clean l = true -> Tok o ts)
    (P1 := fun i c l o c' => forall ts, DTL l ts -> forallb clean l = true -> Tok o ts);
    [assumption|..]; intros ts HD Hc; inv HD; cbn [clean forallb] in Hc; rewrite ?clean_list in Hc;
    try discriminate Hc; try apply andb_prop in Hc as [Hc1 Hc2];
    auto using tok_nil, tok_line, tok_ws, tok_text, tok_app, tok_acomment.
  - (* a comment: skipped *) apply tok_comment. eapply lay_clean_wn; eassumption.
  - (* a syntax token around a text *) apply Lay_inv in H as [-> ->]. now apply tok_tok.
  - (* an item of a fill *) apply tok_app; auto using DT_unab, clean_unab.
Qed.

End Bridge.
