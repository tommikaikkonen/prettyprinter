(** Built-in values (the universe of C01): an induction principle for them;
    they are well-formed and need no class in scope; when max_seq_len does
    not truncate, [norm] is the identity on them up to the order in which dict
    entries are printed. *)
From PP Require Import Doc PyVal Printers PyEval PrettyToks3 EvalRT ValInd.

(** built-in literal values only (the universe of C01) *)
Fixpoint builtin (v : pyval) : Prop :=
  match v with
  | VList l | VTuple l | VSet l | VFrozenset l =>
      (fix all (l : list pyval) : Prop := match l with [] => True | x :: tl => builtin x /\ all tl end) l
  | VDict kvs _ =>
      (fix all (l : list (pyval * pyval)) : Prop :=
         match l with [] => True | (k, x) :: tl => builtin k /\ builtin x /\ all tl end) kvs
  | VSub _ _ | VCommented _ _ | VTrailing _ _ | VCall _ _ _ | VPath _ _ | VRepr _ => False
  | _ => True
  end.

(** no container is longer than [n] *)
Fixpoint fits (n : Z) (v : pyval) : Prop :=
  match v with
  | VList l | VTuple l | VSet l | VFrozenset l =>
      Z.of_nat (length l) <= n /\
      (fix all (l : list pyval) : Prop := match l with [] => True | x :: tl => fits n x /\ all tl end) l
  | VDict kvs so =>
      Z.of_nat (length kvs) <= n /\ (length so <= length kvs)%nat /\
      (fix all (l : list (pyval * pyval)) : Prop :=
         match l with [] => True | (k, x) :: tl => fits n k /\ fits n x /\ all tl end) kvs
  | VSub _ b => fits n b
  | VCommented x _ | VTrailing x _ => fits n x
  | VCall _ args kw =>
      (fix all (l : list pyval) : Prop := match l with [] => True | x :: tl => fits n x /\ all tl end) args /\
      (fix all (l : list (str * pyval)) : Prop := match l with [] => True | (_, x) :: tl => fits n x /\ all tl end) kw
  | _ => True
  end.

(** the same value with dict entries in the order printed *)
Fixpoint canon (sort : bool) (v : pyval) : pyval :=
  match v with
  | VList l => VList (map (canon sort) l)
  | VTuple l => VTuple (map (canon sort) l)
  | VSet l => VSet (map (canon sort) l)
  | VFrozenset l => VFrozenset (map (canon sort) l)
  | VDict kvs so =>
      let kvs' := map (fun kv => (canon sort (fst kv), canon sort (snd kv))) kvs in
      VDict (if sort then reorder kvs' so else kvs') []
  | x => x
  end.

(** [fits] on the container cases of [pyval_ind'] (for [norm_fits] below and the max_seq_len half of DocStable.v) *)
Lemma fits_seq n sub k l : fits n (osub sub (vseq k l)) -> Z.of_nat (length l) <= n /\ Forall (fits n) l.
Proof. rewrite <- (all_Forall (fits n)). now destruct sub, k. Qed.
Lemma fits_frozen n sub l : fits n (osub sub (VFrozenset l)) -> Z.of_nat (length l) <= n /\ Forall (fits n) l.
Proof. rewrite <- (all_Forall (fits n)). now destruct sub. Qed.
Lemma fits_dict n sub kvs so : fits n (osub sub (VDict kvs so)) ->
  Z.of_nat (length kvs) <= n /\ (length so <= length kvs)%nat /\ Forall (fun kv => fits n (fst kv) /\ fits n (snd kv)) kvs.
Proof. rewrite <- (allkv_Forall (fits n) (fits n)). now destruct sub. Qed.

(** (the first premise: every built-in value that is no container) *)
Lemma builtin_ind (P : pyval -> Prop) :
  (forall v, builtin v -> match v with VList _ | VTuple _ | VSet _ | VFrozenset _ | VDict _ _ => True | _ => P v end) ->
  (forall k l, Forall P l -> P (vseq k l)) ->
  (forall l, Forall P l -> P (VFrozenset l)) ->
  (forall kvs so, Forall (fun kv => P (fst kv) /\ P (snd kv)) kvs -> P (VDict kvs so)) ->
  forall v, builtin v -> P v.
Proof.
  intros Hleaf Hseq Hfrozen Hdict.
  assert (L : forall l, Forall (fun x => builtin x -> P x) l -> builtin (VList l) -> Forall P l).
  { intros l IH Hb. apply (all_Forall builtin) in Hb. revert IH Hb. apply Forall_impl2. auto. }
  induction v as [sub z|sub r|sub f|sub bytes s|sub k l IH|sub l IH|sub kvs so IH|b| | |w b _|x cm _|x cm _|f args kw _ _|w s|r]
    using pyval_ind'; intros Hb.
  1-7: destruct sub as [w|]; [contradiction|]; cbn [osub] in *.
  all: try contradiction; try exact (Hleaf _ Hb).
  - destruct f; exact (Hleaf _ Hb).
  - destruct bytes; exact (Hleaf _ Hb).
  - apply Hseq, L; [exact IH|now destruct k].
  - now apply Hfrozen, L.
  - apply Hdict. apply (allkv_Forall builtin builtin) in Hb. revert IH Hb. apply Forall_impl2.
    intros kv [Ik Ix] [Bk Bx]. auto.
Qed.

Section NF.
Variable n : Z.
Variable sort : bool.

Lemma norm_fits_list l :
  Forall (fun x => fits n x -> norm n sort x = canon sort x) l -> Z.of_nat (length l) <= n -> Forall (fits n) l ->
  take_z n (map (norm n sort) l) = map (canon sort) l.
Proof.
  intros IH Hlen Hf. rewrite take_z_all by now rewrite map_length.
  apply map_ext_Forall. revert IH Hf. apply Forall_impl2. auto.
Qed.

Theorem norm_fits v : builtin v -> fits n v -> norm n sort v = canon sort v.
Proof.
  apply (builtin_ind (fun v => fits n v -> norm n sort v = canon sort v)).
  - now intros [].
  - intros k l IH [Hlen Hf]%(fits_seq n None). destruct k; cbn [vseq norm canon]; f_equal; now apply norm_fits_list.
  - intros l IH [Hlen Hf]%(fits_frozen n None). cbn [norm canon]. f_equal. now apply norm_fits_list.
  - intros kvs so IH (Hlen & Hso & Hf)%(fits_dict n None). cbn [norm canon].
    rewrite (map_ext_Forall _ (fun kv => (canon sort (fst kv), canon sort (snd kv))) (l := kvs)).
    + now rewrite take_z_sorted_all by now rewrite map_length.
    + revert IH Hf. apply Forall_impl2. intros kv [Ik Ix] [Fk Fx]. now rewrite Ik, Ix.
Qed.

End NF.

Lemma builtin_wf v : builtin v -> wf_val v.
Proof.
  apply (builtin_ind wf_val).
  - now intros [].
  - intros [] l H; now apply (all_Forall wf_val).
  - now apply (all_Forall wf_val).
  - intros kvs so H. now apply (allkv_Forall wf_val wf_val).
Qed.

Lemma builtin_evaluable env v : builtin v -> evaluable env v.
Proof.
  apply (builtin_ind (evaluable env)).
  - now intros [].
  - intros [] l H; now apply (all_Forall (evaluable env)).
  - now apply (all_Forall (evaluable env)).
  - intros kvs so H. now apply (allkv_Forall (evaluable env) (evaluable env)).
Qed.
