(** C15: the registry/deferred/predicate machinery refines the abstract rule
    "nearest class in the MRO with a (latest) registration, else first
    predicate, else repr": every operation keeps the invariant, and every
    observation is the rule's except the answer of an is_registered query with
    check_deferred = False ([cd_query]). *)

From PP Require Import Doc Dispatch.

Lemma alookup_aupdate k k' v m : alookup k (aupdate k' v m) = if Nat.eqb k k' then Some v else alookup k m.
Proof.
  induction m as [|[k2 v2] tl IH]; cbn [aupdate alookup]; [reflexivity|].
  destruct (Nat.eqb_spec k' k2) as [<-|Hne]; cbn [alookup]; [now destruct (Nat.eqb k k')|].
  rewrite IH. destruct (Nat.eqb_spec k k') as [->|_]; [|reflexivity].
  now rewrite (proj2 (Nat.eqb_neq _ _) Hne).
Qed.

Lemma alookup_aremove k k' m : alookup k (aremove k' m) = if Nat.eqb k k' then None else alookup k m.
Proof.
  induction m as [|[k2 v2] tl IH]; cbn [aremove alookup]; [now destruct (Nat.eqb k k')|].
  destruct (Nat.eqb_spec k' k2) as [<-|Hne]; cbn [alookup]; rewrite IH; [now destruct (Nat.eqb k k')|].
  destruct (Nat.eqb_spec k k') as [->|_]; [|reflexivity].
  now rewrite (proj2 (Nat.eqb_neq _ _) Hne).
Qed.

Section DispatchProofs.
Variable mro : cls -> list cls.
Variable accepts : pd -> nat -> bool.
Hypothesis mro_head : forall c, exists tl, mro c = c :: tl.

(** the abstraction: a deferred entry is always the newest registration *)
Definition absmap (st : dstate) (c : cls) : option nat :=
  match alookup c (d_dfr st) with Some p => Some p | None => alookup c (d_reg st) end.

Fixpoint first_abs (l : list cls) (st : dstate) : option nat :=
  match l with
  | [] => None
  | s :: tl => match absmap st s with Some v => Some v | None => first_abs tl st end
  end.

Definition Inv (st : dstate) (s : sstate) : Prop :=
  (forall c, absmap st c = alookup c (s_latest s)) /\ d_preds st = s_preds s.

Lemma reg_class_abs st c p x : absmap (reg_class st c p) x = if Nat.eqb x c then Some p else absmap st x.
Proof.
  unfold absmap, reg_class. cbn [d_reg d_dfr]. rewrite alookup_aremove, alookup_aupdate. now destruct (Nat.eqb x c).
Qed.

Lemma reg_name_abs st c p x : absmap (reg_name st c p) x = if Nat.eqb x c then Some p else absmap st x.
Proof. unfold absmap, reg_name. cbn [d_reg d_dfr]. rewrite alookup_aupdate. now destruct (Nat.eqb x c). Qed.

Lemma promote_abs st s c : absmap (promote st s) c = absmap st c.
Proof.
  unfold promote. destruct (alookup s (d_dfr st)) as [p|] eqn:E; [|reflexivity].
  unfold absmap. cbn [d_reg d_dfr]. rewrite alookup_aremove, alookup_aupdate.
  destruct (Nat.eqb_spec c s) as [->|_]; [now rewrite E|reflexivity].
Qed.

Lemma promote_preds st s : d_preds (promote st s) = d_preds st.
Proof. unfold promote. now destruct (alookup s (d_dfr st)). Qed.

Lemma isreg_state st c cs cd rd :
  snd (isreg mro st c cs cd rd) = st \/ exists s, rd = true /\ snd (isreg mro st c cs cd rd) = promote st s.
Proof.
  unfold isreg. destruct (negb cd && rd); [now left|].
  destruct (cd && ahas c (d_dfr st)); [destruct rd; cbn [snd]; eauto|].
  destruct (ahas c (d_reg st)); [now left|]. destruct (negb cs); [now left|].
  destruct (if cd then first_in (tl (mro c)) (d_dfr st) else None); [|now left].
  destruct rd; cbn [snd]; eauto.
Qed.

Lemma isreg_abs st c cs cd rd x :
  absmap (snd (isreg mro st c cs cd rd)) x = absmap st x.
Proof. destruct (isreg_state st c cs cd rd) as [->|(s & _ & ->)]; auto using promote_abs. Qed.

Lemma isreg_preds st c cs cd rd : d_preds (snd (isreg mro st c cs cd rd)) = d_preds st.
Proof. destruct (isreg_state st c cs cd rd) as [->|(s & _ & ->)]; auto using promote_preds. Qed.

(** with register_deferred = False, is_registered has no effect *)
Lemma isreg_pure st c cs cd : snd (isreg mro st c cs cd false) = st.
Proof. destruct (isreg_state st c cs cd false) as [H|(s & [=] & _)]; exact H. Qed.

(** after promoting the first deferred class of [l], if there is one, the
    registry alone gives what the abstraction gives *)
Lemma first_val_promote l : forall st,
  first_val l (d_reg (match first_in l (d_dfr st) with Some s => promote st s | None => st end)) = first_abs l st.
Proof.
  induction l as [|x tl IH]; intros st; [reflexivity|]. cbn [first_in first_val first_abs]. unfold absmap, ahas.
  destruct (alookup x (d_dfr st)) as [p|] eqn:E.
  - unfold promote. rewrite E. cbn [d_reg]. now rewrite alookup_aupdate, Nat.eqb_refl.
  - rewrite <- IH. destruct (first_in tl (d_dfr st)) as [s|]; [|reflexivity].
    (* a class promoted further down is deferred, so it is not [x] *)
    unfold promote. destruct (alookup s (d_dfr st)) eqn:Es; [|reflexivity]. cbn [d_reg]. rewrite alookup_aupdate.
    destruct (Nat.eqb_spec x s) as [->|_]; [congruence|reflexivity].
Qed.

Lemma print_dispatch st c :
  first_val (mro c) (d_reg (snd (isreg mro st c true true true))) = first_abs (mro c) st.
Proof.
  destruct (mro_head c) as [tl Hm]. unfold isreg. cbn [negb andb]. rewrite Hm. cbn [List.tl].
  destruct (ahas c (d_dfr st)) eqn:Ed; cbn [snd].
  { rewrite <- first_val_promote. cbn [first_in]. now rewrite Ed. }
  destruct (ahas c (d_reg st)) eqn:Er; cbn [snd].
  { cbn [first_val first_abs]. unfold absmap. unfold ahas in Ed, Er.
    destruct (alookup c (d_dfr st)); [discriminate|]. now destruct (alookup c (d_reg st)). }
  rewrite <- first_val_promote. cbn [first_in]. rewrite Ed. now destruct (first_in tl (d_dfr st)).
Qed.

Lemma first_abs_spec l st m : (forall c, absmap st c = alookup c m) -> first_abs l st = first_val l m.
Proof. intros H. induction l as [|x tl IH]; [reflexivity|]. cbn [first_abs first_val]. now rewrite H, IH. Qed.

Lemma first_abs_some l st :
  match first_abs l st with Some _ => true | None => false end =
  match first_in l (d_dfr st) with Some _ => true | None => false end
  || match first_val l (d_reg st) with Some _ => true | None => false end.
Proof.
  induction l as [|x tl IH]; [reflexivity|]. cbn [first_abs first_in first_val]. unfold absmap, ahas.
  destruct (alookup x (d_dfr st)); [reflexivity|]. destruct (alookup x (d_reg st)); [apply eq_sym, orb_true_r|exact IH].
Qed.

(** is_registered with check_deferred = True answers by the rule *)
Lemma isreg_answer st c cs rd :
  fst (isreg mro st c cs true rd) =
  Some (match first_abs (if cs then mro c else [c]) st with Some _ => true | None => false end).
Proof.
  destruct (mro_head c) as [tl Hm]. rewrite first_abs_some. unfold isreg. rewrite Hm. cbn [negb andb List.tl].
  destruct cs; cbn [first_in first_val negb]; destruct (ahas c (d_dfr st)); try reflexivity;
    unfold ahas; destruct (alookup c (d_reg st)); try reflexivity;
    now destruct (first_in tl (d_dfr st)).
Qed.

Definition sobs (s : sstate) (o : dop) : dobs :=
  match o with
  | RegClass _ _ | RegName _ _ | RegPred _ _ => OUnit
  | Print c i => OChosen (schosen mro accepts s c i)
  | IsReg c cs cd rd =>
      if negb cd && rd then OBool None else OBool (Some (sisreg mro s c cs))
  end.

Fixpoint srun (s : sstate) (h : list dop) : list dobs :=
  match h with
  | [] => []
  | o :: tl => sobs s o :: srun (sstep s o) tl
  end.

(** histories whose is_registered queries look at deferred printers (or are
    the illegal flag combination); check_deferred=False is an
    implementation-level query, see [isreg_nodeferred_sound] *)
Definition cd_query (o : dop) : bool :=
  match o with IsReg _ _ cd rd => cd || rd | _ => true end.

Lemma Inv_isreg st s c cs cd rd : Inv st s -> Inv (snd (isreg mro st c cs cd rd)) s.
Proof. intros [Ha Hp]. split; [intros x; rewrite isreg_abs; apply Ha|rewrite isreg_preds; exact Hp]. Qed.

(** every operation keeps the invariant; the observation is the rule's unless
    the query is the implementation-level one *)
Lemma step_refines st s o :
  Inv st s ->
  (cd_query o = true -> fst (dstep mro accepts st o) = sobs s o) /\ Inv (snd (dstep mro accepts st o)) (sstep s o).
Proof.
  intros HI. pose proof HI as [Ha Hp].
  destruct o as [c p|c p|q p|c i|c cs cd rd]; cbn [dstep sobs sstep fst snd].
  - split; [reflexivity|]. split; [|exact Hp]. intros x. cbn [s_latest]. now rewrite reg_class_abs, alookup_aupdate, Ha.
  - split; [reflexivity|]. split; [|exact Hp]. intros x. cbn [s_latest]. now rewrite reg_name_abs, alookup_aupdate, Ha.
  - split; [reflexivity|]. split; [exact Ha|]. unfold reg_pred. now rewrite Hp.
  - unfold print. split; [intros _|now apply Inv_isreg].
    rewrite print_dispatch, isreg_preds. now rewrite (first_abs_spec _ _ _ Ha), Hp.
  - rewrite (surjective_pairing (isreg mro st c cs cd rd)). split; [intros Hq|now apply Inv_isreg].
    destruct cd; cbn [negb andb].
    + rewrite isreg_answer. now rewrite (first_abs_spec _ _ _ Ha).
    + cbn [cd_query orb] in Hq. now subst rd.
Qed.

Theorem refines : forall h st s,
  Inv st s -> forallb cd_query h = true -> drun mro accepts st h = srun s h.
Proof.
  induction h as [|o tl IH]; intros st s HI Hq; [reflexivity|].
  apply andb_prop in Hq as [Hq1 Hq2].
  cbn [drun srun]. destruct (step_refines st s o HI) as [Hx HI'].
  destruct (dstep mro accepts st o) as [x st']. cbn [fst snd] in Hx, HI'. rewrite (Hx Hq1). f_equal. now apply IH.
Qed.

Lemma Inv_init : Inv dinit sinit.
Proof. split; [intros c; reflexivity|reflexivity]. Qed.

(** check_deferred = False: a positive answer is sound for the rule *)
Lemma isreg_nodeferred_sound st c cs :
  fst (isreg mro st c cs false false) = Some true ->
  exists p, first_abs (if cs then mro c else [c]) st = Some p.
Proof.
  destruct (mro_head c) as [tl Hm]. intros H.
  pose proof (first_abs_some (if cs then mro c else [c]) st) as E.
  destruct (first_abs _ st) as [p|]; [now exists p|]. symmetry in E. apply orb_false_elim in E as [_ E].
  revert H E. unfold isreg. rewrite Hm. cbn [negb andb]. unfold ahas.
  destruct cs; cbn [first_val negb]; destruct (alookup c (d_reg st)); cbn [fst]; try discriminate.
  now destruct (first_val tl (d_reg st)).
Qed.

End DispatchProofs.
