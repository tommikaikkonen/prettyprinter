(** C05 lifted to every decision of every run from a classic document. *)

From PP Require Import Tac Doc Layout Classic FirstLine.

Section FlatFits.
Variable evs : strp -> Z -> Z -> Z -> Z -> doc.
Variables (ff : nat) (smart : bool) (w rw : Z).

(** the state after [k] iterations of the main loop, if it runs that long *)
Fixpoint steps (k : nat) (st : lstate) : option lstate :=
  match k with
  | O => Some st
  | S k' => match layout_step evs ff smart w rw st with
            | LCont st' => steps k' st'
            | _ => None
            end
  end.

Lemma classic_steps k : forall st st',
  classic_stk (ls_stk st) -> steps k st = Some st' -> classic_stk (ls_stk st').
Proof.
  induction k as [|k IH]; intros st st' HC E; cbn [steps] in E.
  - now inv E.
  - pose proof (classic_step evs ff smart w rw st HC) as HC1.
    destruct (layout_step evs ff smart w rw st); try discriminate. eauto.
Qed.

Lemma loop_from_reach k : forall fuel st0 st out,
  layout_loop evs fuel ff smart w rw st0 = Some out -> steps k st0 = Some st ->
  exists fuel', layout_loop evs fuel' ff smart w rw st = Some out.
Proof.
  induction k as [|k IH]; intros fuel st0 st out HL HS; cbn [steps] in HS.
  - inv HS. eauto.
  - destruct fuel as [|fuel]; [discriminate|]. cbn [layout_loop] in HL.
    destruct (layout_step evs ff smart w rw st0) as [|st1|]; try discriminate. eauto.
Qed.

Theorem flat_fits d fuel out :
  classic d = true ->
  best_layout evs fuel ff smart w rw d = Some out ->
  forall k i m x rest col o,
    steps k (init_state d) = Some (mkL ((i, m, Group x) :: rest) col o) ->
    fits evs ff smart w rw (Z.min col i) (avail w rw col i) ((i, MFlat, x) :: rest) = Some true ->
    exists new, out = rev o ++ new /\ col + flw new <= Z.min w (i + rw).
Proof.
  intros Hc HB k i m x rest col o HS Hfit.
  destruct (loop_from_reach _ _ _ _ _ HB HS) as [fuel' HL].
  eapply flat_group_first_line; eauto. apply (classic_steps k _ _) in HS; [exact HS|].
  apply classic_stk_cons; [now apply classic_normalize|constructor].
Qed.

End FlatFits.
