(** Shape of the documents the printers build: every nest offset is ctx.indent,
    the string printer is handed ctx.indent, there is no align, no lazily
    normalised flat_choice and no layout-stack residue ([printed k true]); with
    [strs = false] there is no contextual string document either.  This one
    test implies the hypotheses of the three bridges from layouts to streams:
    LayToks.clean, IndentMult.nestk and, through it, AnnotProofs.nopop.  First
    the combinators of Printers.v, then the values: the documents built for a
    value have this shape - for every value with contextual string documents
    allowed, for values without strings ([nostr]) with none in them. *)
From PP Require Import Doc PyStr PyVal Consts Printers DocInd ValInd LayToks IndentMult.

Definition printed (k : Z) (strs : bool) (d : doc) : bool :=
  match d with
  | Nest j _ => j =? k
  | CtxS p => strs && (sp_indent p =? k)
  | FCN _ _ | Align _ | PopD _ => false
  | _ => true
  end.

Lemma printed_nestk k strs : forall d, dall (printed k strs) d = true -> nestk k d = true.
Proof.
  apply dall_mono. intros []; cbn [printed nestq]; try easy.
  now intros [_ ?]%andb_prop.
Qed.

Lemma printed_clean k : forall d, dall (printed k false) d = true -> clean d = true.
Proof. intros d. rewrite clean_dall. apply dall_mono. now intros []. Qed.

(** values without strings (special floats and paths print through the string printer) *)
Fixpoint nostr (v : pyval) : Prop :=
  match v with
  | VStr _ | VBytes _ | VInf | VNegInf | VNan | VPath _ _ => False
  | VList l | VTuple l | VSet l | VFrozenset l =>
      (fix all (l : list pyval) : Prop := match l with [] => True | x :: tl => nostr x /\ all tl end) l
  | VDict kvs _ =>
      (fix all (l : list (pyval * pyval)) : Prop :=
         match l with [] => True | (k, x) :: tl => nostr k /\ nostr x /\ all tl end) kvs
  | VSub _ b => nostr b
  | VCommented x _ | VTrailing x _ => nostr x
  | VCall _ args kw =>
      (fix all (l : list pyval) : Prop := match l with [] => True | x :: tl => nostr x /\ all tl end) args /\
      (fix all (l : list (str * pyval)) : Prop := match l with [] => True | (_, x) :: tl => nostr x /\ all tl end) kw
  | _ => True
  end.

Section Shape.
Variable sp lb : N -> bool.
Variable ki : Z.
Variable strs : bool.
Notation Q := (dall (printed ki strs)).

Lemma shape_cat l : Q (Cat l) = forallb Q l. Proof. reflexivity. Qed.
Lemma shape_nest x : Q (Nest ki x) = Q x. Proof. cbn [dall printed]. now rewrite Z.eqb_refl. Qed.
Lemma shape_ab x : Q (AlwaysBreak x) = Q x. Proof. reflexivity. Qed.
Lemma shape_annot a x : Q (Annot a x) = Q x. Proof. reflexivity. Qed.
Lemma shape_ab_group (b : bool) x : Q (if b then AlwaysBreak x else Group x) = Q x. Proof. now destruct b. Qed.

(** [Q] of a spelled-out skeleton is computed; a [Cat] over a list that is not
    spelled out is put behind a variable first, or taken off with [shape_cat]. *)
Ltac cl := cbn [dall printed forallb andb].

Lemma shape_intersperse x l : Q x = true -> forallb Q l = true -> forallb Q (intersperse x l) = true.
Proof.
  intros Hx. induction l as [|y [|z tl] IH]; intros H; cbn [intersperse forallb] in *; auto.
  apply andb_prop in H as [Hy H]. rewrite Hy, Hx. apply IH. exact H.
Qed.

Lemma shape_comment_items : forall l b, forallb Q (comment_items l b) = true.
Proof. induction l as [|p tl IH]; intros b; [reflexivity|]. cbn [comment_items forallb]. rewrite IH. destruct b; reflexivity. Qed.

Lemma shape_comment_line line : Q (comment_line sp line) = true.
Proof.
  unfold comment_line. cl. rewrite shape_comment_items.
  destruct (filter nonempty (re_split sp line)) as [|p tl]; [reflexivity|].
  destruct (existsb sp (firstn 1 p)); reflexivity.
Qed.

Lemma shape_commentdoc t : Q (commentdoc sp lb t) = true.
Proof.
  unfold commentdoc. set (body := Cat _).
  assert (H : Q body = true); [|destruct (Nat.ltb 1 _); exact H].
  apply shape_intersperse; [reflexivity|]. apply forallb_map. intros x _. apply shape_comment_line.
Qed.

Lemma shape_uncomment d : Q d = true -> Q (uncomment d) = true.
Proof. destruct d; auto. destruct a; auto. Qed.

Section WithCtx.
Variable ctx : pctx.
Hypothesis Hci : c_indent ctx = ki.
(* [cl] where the skeleton has nest offsets: they are [c_indent ctx] *)
Ltac clc := cl; rewrite ?Hci, ?Z.eqb_refl; cbn [andb].

Lemma shape_bracket l c r : Q l = true -> Q c = true -> Q r = true -> Q (bracket ctx l c r) = true.
Proof. intros Hl Hc Hr. unfold bracket. clc. now rewrite Hl, Hc, Hr. Qed.

Lemma shape_seq_parts dangle : forall docs, forallb Q docs = true -> forallb Q (seq_parts sp lb docs dangle) = true.
Proof.
  induction docs as [|d tl IH]; intros H; [reflexivity|]. apply andb_prop in H as [Hd H].
  cbn [seq_parts]. destruct (is_commented d) as [c|].
  - cbn [forallb]. rewrite (IH H). clc. rewrite Hd, shape_commentdoc.
    destruct tl, dangle; reflexivity.
  - destruct tl; cbn [forallb]; [now rewrite Hd|]. rewrite Hd, (IH H). reflexivity.
Qed.

Lemma shape_sequence_of_docs l docs r dangle fb :
  Q l = true -> Q r = true -> forallb Q docs = true ->
  Q (sequence_of_docs sp lb ctx l docs r dangle fb) = true.
Proof.
  intros Hl Hr Hd. unfold sequence_of_docs. rewrite shape_ab_group. apply shape_bracket; auto.
  rewrite shape_cat, forallb_app, (shape_seq_parts dangle docs Hd). now destruct (dangle && _).
Qed.

Lemma shape_fncall_parts : forall docs hc, forallb Q docs = true ->
  forallb Q (fst (fncall_parts sp lb docs hc)) = true.
Proof.
  induction docs as [|d tl IH]; intros hc H; [reflexivity|]. apply andb_prop in H as [Hd H].
  cbn [fncall_parts]. specialize (IH (match is_commented d with Some _ => true | None => hc end) H).
  destruct (fncall_parts sp lb tl _) as [rest hc']. cbn [fst forallb] in *. rewrite IH, andb_true_r.
  pose proof (shape_uncomment d Hd) as Hu.
  destruct (is_commented d) as [c|]; destruct tl; clc; rewrite ?Hu, ?shape_commentdoc; try reflexivity;
    destruct hc; reflexivity.
Qed.

Lemma shape_kwarg_doc kv : Q (snd kv) = true -> Q (kwarg_doc kv) = true.
Proof.
  destruct kv as [k d]. cbn [snd]. intros H. rewrite kwarg_doc_eq. pose proof (shape_uncomment d H) as Hu.
  destruct (is_commented d); cl; [now rewrite Hu|now rewrite H].
Qed.

Lemma shape_build_fncall fndoc argdocs kwargdocs hug :
  Q fndoc = true -> forallb Q argdocs = true -> forallb (fun kv => Q (snd kv)) kwargdocs = true ->
  Q (build_fncall sp lb ctx fndoc argdocs kwargdocs hug) = true.
Proof.
  intros Hf Ha Hk. destruct (build_fncall_form sp lb ctx fndoc argdocs kwargdocs hug) as [_ _|a -> _|].
  - clc. now rewrite Hf.
  - cbn [forallb] in Ha. rewrite andb_true_r in Ha. clc. now rewrite Hf, Ha.
  - assert (Hkw : forallb Q (map kwarg_doc kwargdocs) = true).
    { apply forallb_map. intros kv Hin. apply shape_kwarg_doc. revert kv Hin. now apply forallb_forall. }
    pose proof (shape_fncall_parts (argdocs ++ map kwarg_doc kwargdocs) false) as HP.
    rewrite forallb_app, Ha, Hkw in HP. unfold call_body.
    destruct (fncall_parts sp lb _ false) as [parts hcm]. cbn [fst] in HP. rewrite <- shape_cat in HP.
    set (body := Cat parts) in *. rewrite shape_ab_group. clc. now rewrite Hf, HP.
Qed.

Lemma shape_sub_wrap hug sub lit : Q lit = true -> Q (sub_wrap sp lb ctx hug sub lit) = true.
Proof.
  intros H. destruct sub; [|exact H]. apply shape_build_fncall; cbn [forallb]; try reflexivity. now rewrite H.
Qed.

Lemma shape_call_alt_d f h same nested kws :
  forallb Q (same tt) = true -> forallb Q (nested tt) = true ->
  forallb (fun kv => Q (snd kv)) (kws tt) = true ->
  Q (call_alt_d sp lb ctx f h same nested kws) = true.
Proof.
  intros Hs Hn Hk. unfold call_alt_d. destruct (depth_le0 ctx); [reflexivity|].
  destruct h; apply shape_build_fncall; auto.
Qed.

Lemma shape_dict_part last k x xp :
  Q k = true -> Q x = true -> Q (xp tt) = true ->
  Q (fst (dict_part sp lb ctx last k x xp)) = true.
Proof.
  intros Hk Hx Hp. unfold dict_part. cbn [fst].
  pose proof (shape_uncomment k Hk) as Huk. pose proof (shape_uncomment x Hx) as Hux.
  destruct (is_commented k) as [kc|], (is_commented x) as [vc|]; clc;
    rewrite ?Huk, ?Hux, ?Hp, ?shape_commentdoc; destruct last; reflexivity.
Qed.

Lemma shape_dict_parts : forall l,
  forallb (fun t => Q (fst (fst t)) && Q (snd (fst t)) && Q (snd t tt)) l = true ->
  forallb Q (fst (dict_parts sp lb ctx l)) = true.
Proof.
  induction l as [|[[k x] xp] tl IH]; intros H; [reflexivity|].
  cbn [forallb fst snd] in H. apply andb_prop in H as [H1 H]. apply andb_prop in H1 as [H1 Hp].
  apply andb_prop in H1 as [Hk Hx].
  rewrite dict_parts_cons. cbn [forallb]. now rewrite shape_dict_part, IH.
Qed.

Lemma shape_br kind : Q (lbr kind) = true /\ Q (rbr kind) = true.
Proof. now destruct kind as [|[|k]]. Qed.

Lemma shape_seq_d kind len sub tr els :
  forallb Q (els tt) = true -> Q (seq_d sp lb ctx kind len sub tr els) = true.
Proof.
  intros He. rewrite seq_d_eq. destruct (shape_br kind) as [Hl Hr]. destruct len as [|n].
  - destruct (_ && _); [clc; now rewrite Hl, Hr|apply shape_call_alt_d; reflexivity].
  - destruct (depth_is0 ctx).
    + destruct (Nat.ltb kind 2); [apply shape_sub_wrap; clc; now rewrite Hl, Hr|apply shape_call_alt_d; reflexivity].
    + assert (H0 : forallb Q (seq_shown ctx (S n) (els tt)) = true) by (destruct n; [exact He|now apply forallb_take]).
      apply shape_sub_wrap. unfold seq_lit. destruct (notice ctx _ tr); apply shape_sequence_of_docs; auto.
      rewrite forallb_app, H0. cbn [forallb]. now rewrite shape_commentdoc.
Qed.

Lemma shape_dict_d sub tr so triples :
  forallb (fun t => Q (fst (fst t)) && Q (snd (fst t)) && Q (snd t tt)) (triples tt) = true ->
  Q (dict_d sp lb ctx sub tr so triples) = true.
Proof.
  intros Ht. rewrite dict_d_eq. destruct (depth_is0 ctx); [now apply shape_sub_wrap|].
  assert (HL : Q (dict_lit sp lb ctx tr so (triples tt)) = true).
  { unfold dict_lit. rewrite shape_ab_group. apply shape_bracket; try reflexivity.
    unfold dict_items. rewrite shape_cat, forallb_app, shape_dict_parts.
    - destruct (notice ctx _ tr); [clc; now rewrite shape_commentdoc|reflexivity].
    - apply forallb_take. destruct (c_sort ctx); [now apply forallb_reorder|exact Ht]. }
  destruct sub as [c|]; [destruct (dict_items _ _ _ _ _ _)|]; try exact (shape_sub_wrap _ _ _ HL).
  apply shape_call_alt_d; reflexivity.
Qed.

Lemma shape_num_d t base lit sub : Q (num_d sp lb ctx t base lit sub) = true.
Proof.
  unfold num_d. destruct (depth_is0 ctx); [apply shape_call_alt_d; reflexivity|].
  now apply (shape_sub_wrap false sub).
Qed.

Lemma shape_frozen_d len sub lst : Q (lst tt) = true -> Q (frozen_d sp lb ctx len sub lst) = true.
Proof.
  intros H. destruct len; apply shape_call_alt_d; cbn [forallb]; try reflexivity. now rewrite H.
Qed.

End WithCtx.

Lemma shape_finish cm d : Q d = true -> Q (finish cm d) = true.
Proof. intros H. unfold finish. destruct (truthy cm); exact H. Qed.

Lemma shape_str_doc ctx b s w p : c_indent ctx = ki -> strs = true -> Q (str_doc ctx b s w p) = true.
Proof.
  intros H Hs. unfold str_doc. destruct (depth_is0 ctx); [reflexivity|]. cbn [dall printed sp_indent].
  rewrite Hs, H. now rewrite Z.eqb_refl.
Qed.

Lemma shape_special ctx name sub : c_indent ctx = ki -> strs = true -> Q (special_float_d sp lb ctx name sub) = true.
Proof.
  intros H Hs. unfold special_float_d. destruct (depth_is0 ctx); [apply shape_call_alt_d; auto; reflexivity|].
  apply shape_call_alt_d; auto; cbn [forallb]. now rewrite shape_str_doc.
Qed.

Notation pretty_pv := (pretty_pv sp lb).

Definition ShapeV (v : pyval) : Prop :=
  (strs = false -> nostr v) -> forall ctx cm tr, c_indent ctx = ki -> Q (pretty_pv v ctx cm tr) = true.

Lemma shape_map ctx l : c_indent ctx = ki -> (strs = false -> Forall nostr l) -> Forall ShapeV l ->
  forallb Q (map (fun x => pretty_pv x ctx None None) l) = true.
Proof.
  intros Hc Hs IH. apply forallb_map. rewrite Forall_forall in *. intros x Hx. apply IH; auto.
Qed.

Lemma shape_mapkw ctx (kw : list (str * pyval)) : c_indent ctx = ki ->
  (strs = false -> Forall (fun kv => nostr (snd kv)) kw) -> Forall (fun kv => ShapeV (snd kv)) kw ->
  forallb (fun kv => Q (snd kv)) (map (fun '(k, x) => (k, pretty_pv x ctx None None)) kw) = true.
Proof.
  intros Hc Hs IH. apply forallb_map. rewrite Forall_forall in *. intros [k x] Hx. apply (IH _ Hx); auto.
Qed.

Lemma shape_key ctx k : c_indent ctx = ki -> (strs = false -> nostr k) -> ShapeV k -> Q (key_doc_ sp lb ctx k) = true.
Proof.
  intros Hc Hs IH. rewrite key_doc_eq. apply IH; auto. unfold key_ctx. now destruct (str_key k).
Qed.

Lemma shape_triples ctx kvs : c_indent ctx = ki ->
  (strs = false -> Forall (fun kv => nostr (fst kv) /\ nostr (snd kv)) kvs) ->
  Forall (fun kv => ShapeV (fst kv) /\ ShapeV (snd kv)) kvs ->
  forallb (fun t : doc * doc * (unit -> doc) => Q (fst (fst t)) && Q (snd (fst t)) && Q (snd t tt))
    (triples_ sp lb ctx kvs) = true.
Proof.
  intros Hc Hs IH. apply forallb_map. rewrite Forall_forall in *. intros [k x] Hin. destruct (IH _ Hin) as [Hk Hx].
  assert (Hn : strs = false -> nostr k /\ nostr x) by (intros E; exact (Hs E _ Hin)).
  cbn [fst snd]. rewrite (shape_key ctx k), !Hx; auto; intros E; apply (Hn E).
Qed.

Theorem shape_pretty : forall v, ShapeV v.
Proof.
  induction v as [sub z|sub r|sub f|sub bytes s|sub k l IH|sub l IH|sub kvs so IH|b| | |c b Hb|x c IH|x c IH|f args kw IHa IHk|c s|r]
    using pyval_ind'; intros Hs ctx cm tr Hc.
  - rewrite pretty_int. now apply shape_finish, shape_num_d.
  - rewrite pretty_float. now apply shape_finish, shape_num_d.
  - rewrite pretty_special. apply shape_finish, shape_special; auto. destruct strs; [reflexivity|]. destruct sub, f; destruct (Hs eq_refl).
  - rewrite pretty_str. apply shape_finish, shape_str_doc; auto. destruct strs; [reflexivity|]. destruct sub, bytes; destruct (Hs eq_refl).
  - (* the contexts of the recursive calls have the indent of [ctx] by computation: [Hc] serves for them *)
    rewrite pretty_seq. apply shape_finish, shape_seq_d; auto. rewrite elems_eq. apply shape_map; auto.
    intros E. apply (all_Forall nostr). destruct sub, k; exact (Hs E).
  - rewrite pretty_frozen. apply shape_finish, shape_frozen_d; auto. apply shape_seq_d; auto. rewrite elems_eq. apply shape_map; auto.
    intros E. apply (all_Forall nostr). destruct sub; exact (Hs E).
  - rewrite pretty_dict. apply shape_finish, shape_dict_d; auto. apply shape_triples; auto.
    intros E. apply (allkv_Forall nostr nostr). destruct sub; exact (Hs E).
  - apply shape_finish. now destruct b.
  - now apply shape_finish.
  - now apply shape_finish.
  - rewrite pretty_badsub by exact Hb. now apply shape_finish.
  - now apply IH.
  - now apply IH.
  - rewrite pretty_call. apply shape_finish, shape_call_alt_d; auto; [apply shape_map|apply shape_map|apply shape_mapkw]; auto;
      intros E; [apply (all_Forall nostr)|apply (all_Forall nostr)|apply (allkw_Forall nostr)]; apply (Hs E).
  - apply shape_finish, shape_build_fncall; auto. cbn [forallb]. rewrite shape_str_doc; auto.
    destruct strs; [reflexivity|]. destruct (Hs eq_refl).
  - now apply shape_finish.
Qed.

Theorem shape_top_doc v depth maxlen sort : (strs = false -> nostr v) -> Q (top_doc sp lb v ki depth maxlen sort) = true.
Proof.
  intros Hs. unfold top_doc. pose proof (shape_pretty v Hs (mkCtx ki depth MPlain maxlen sort) None None eq_refl) as Hc.
  destruct (is_commented _); [|exact Hc]. cbn [dall printed andb]. now rewrite Hc, shape_commentdoc.
Qed.

End Shape.

Theorem clean_top_doc sp lb v indent depth maxlen sort : nostr v -> clean (top_doc sp lb v indent depth maxlen sort) = true.
Proof. intros H. apply (printed_clean indent), shape_top_doc. now intros _. Qed.

Theorem nk_top_doc sp lb ki v depth maxlen sort : nestk ki (top_doc sp lb v ki depth maxlen sort) = true.
Proof. apply (printed_nestk ki true), shape_top_doc. discriminate. Qed.
