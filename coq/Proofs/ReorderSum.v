(** [tsum f l], the sum of a measure over a list.  Picking elements of a list
    by a duplicate-free list of indices never increases it ([reorder_le]): the
    sum over the picked indices is compared with the sum over all indices,
    [sumn], one picked index after the other set to weight zero. *)
From Coq Require Import Lia.
From PP Require Import Doc Printers.
Local Open Scope nat_scope.

Section RS.
Context {A : Type}.
Variable f : A -> nat.

Definition tsum (l : list A) : nat := fold_right (fun x a => f x + a) 0 l.
(** a rewrite, where [cbn [tsum fold_right]] over a tail that is not spelled out would leave a [fold_right]
    that [lia] does not identify with the [tsum] in a hypothesis *)
Lemma tsum_cons x l : tsum (x :: l) = f x + tsum l.
Proof. reflexivity. Qed.
(** the local sum inside a nested fixpoint such as [FuelAll.wt], as simplification leaves it behind over a list
    that is not spelled out *)
Lemma tsum_fold l : (fix sum (l : list A) : nat := match l with [] => 0 | x :: tl => f x + sum tl end) l = tsum l.
Proof. reflexivity. Qed.
Lemma tsum_app a b : tsum (a ++ b) = tsum a + tsum b.
Proof. induction a as [|x tl IH]; [reflexivity|]. cbn [app]. rewrite !tsum_cons, IH. lia. Qed.
Lemma tsum_take : forall l n, tsum (take_z n l) <= tsum l.
Proof.
  induction l as [|x tl IH]; intros n; cbn [take_z]; [lia|].
  destruct (n <=? 0)%Z; [cbn; lia|]. rewrite !tsum_cons. specialize (IH (n - 1)%Z). lia.
Qed.
End RS.

Lemma tsum_map_le {A B} (f : B -> nat) (g : A -> nat) (h : A -> B) a k l :
  Forall (fun x => f (h x) + a <= k * g x) l -> tsum f (map h l) + a * length l <= k * tsum g l.
Proof. induction 1 as [|x tl Hx _ IH]; [cbn; lia|]. cbn [map length]. rewrite !tsum_cons. lia. Qed.

Fixpoint sumn (w : nat -> nat) (n : nat) : nat := match n with O => 0 | S k => w k + sumn w k end.
Definition zero_at (i : nat) (w : nat -> nat) : nat -> nat := fun j => if Nat.eqb j i then 0 else w j.

Lemma sumn_ext w w' n : (forall i, i < n -> w i = w' i) -> sumn w n = sumn w' n.
Proof. induction n as [|k IH]; intros H; [reflexivity|]. cbn. rewrite (H k) by lia. rewrite IH; auto. Qed.

Lemma sumn_zero_at i w n : sumn (zero_at i w) n + (if Nat.ltb i n then w i else 0) = sumn w n.
Proof.
  induction n as [|k IH]; [reflexivity|]. cbn [sumn]. unfold zero_at at 1. revert IH.
  destruct (Nat.eqb_spec k i) as [->|Hne].
  - destruct (Nat.ltb_spec i i), (Nat.ltb_spec i (S i)); lia.
  - destruct (Nat.ltb_spec i k), (Nat.ltb_spec i (S k)); lia.
Qed.

Lemma tsum_zero_at i w l : ~ In i l -> tsum (zero_at i w) l = tsum w l.
Proof.
  induction l as [|j tl IH]; intros H; [reflexivity|]. rewrite !tsum_cons, IH by (intros Hin; apply H; now right).
  unfold zero_at. destruct (Nat.eqb_spec j i) as [->|]; [exfalso; apply H; now left|reflexivity].
Qed.

Lemma tsum_le_sumn : forall l w n, NoDup l -> (forall i, n <= i -> w i = 0) -> tsum w l <= sumn w n.
Proof.
  induction l as [|i tl IH]; intros w n Hnd Hz; [cbn; lia|].
  inversion Hnd as [|? ? Hni Hnd']; subst. rewrite tsum_cons, <- (tsum_zero_at i w tl Hni).
  assert (Hz' : forall j, n <= j -> zero_at i w j = 0) by (intros j Hj; unfold zero_at; destruct (Nat.eqb j i); auto).
  specialize (IH (zero_at i w) n Hnd' Hz'). pose proof (sumn_zero_at i w n) as E.
  destruct (Nat.ltb_spec i n); [lia|]. rewrite (Hz i) by lia. lia.
Qed.

Lemma sumn_shift w n : sumn w (S n) = w 0 + sumn (fun j => w (S j)) n.
Proof. induction n as [|k IH]; [cbn; lia|]. cbn [sumn] in *. lia. Qed.

Section Reorder.
Context {A : Type}.
Variable f : A -> nat.

Definition wof (l : list A) : nat -> nat := fun i => match nth_error l i with Some x => f x | None => 0 end.

Lemma sumn_wof l : sumn (wof l) (length l) = tsum f l.
Proof.
  induction l as [|x tl IH]; [reflexivity|]. cbn [length]. rewrite sumn_shift, tsum_cons, <- IH. reflexivity.
Qed.

Lemma tsum_reorder l order : tsum f (reorder l order) = tsum (wof l) order.
Proof.
  induction order as [|i tl IH]; [reflexivity|]. cbn [reorder]. rewrite tsum_cons. unfold wof at 1.
  destruct (nth_error l i); rewrite ?tsum_cons; lia.
Qed.

Theorem reorder_le l order : NoDup order -> tsum f (reorder l order) <= tsum f l.
Proof.
  intros H. rewrite tsum_reorder, <- sumn_wof. apply tsum_le_sumn; [exact H|].
  intros i Hi. unfold wof. apply nth_error_None in Hi. now rewrite Hi.
Qed.

End Reorder.
