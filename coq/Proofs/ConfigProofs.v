(** C18: explicit arguments override defaults; set_default_config changes
    exactly the keys it is given; all entry points plumb identically. *)
From Coq Require Import String.
From PP Require Import Doc Config.

Lemma lookup_update k k' v e : lookup k (update k' v e) = if String.eqb k k' then Some v else lookup k e.
Proof.
  induction e as [|[k2 v2] tl IH]; cbn [update lookup]; [reflexivity|].
  destruct (String.eqb_spec k' k2) as [<-|Hne]; cbn [lookup]; [now destruct (String.eqb k k')|].
  rewrite IH. destruct (String.eqb_spec k k') as [->|_]; [|reflexivity].
  now rewrite (proj2 (String.eqb_neq _ _) Hne).
Qed.

Lemma lookup_ep_In ep eps pl : lookup_ep ep eps = Some pl -> In (ep, pl) eps.
Proof.
  induction eps as [|[n pl'] tl IH]; cbn [lookup_ep]; [discriminate|].
  destruct (String.eqb_spec ep n) as [->|_]; [intros [= ->]; now left|right; auto].
Qed.

(** _merge_defaults: the keys are those of the defaults; an explicit argument wins *)
Lemma merge_lookup k e d :
  lookup k (merge e d) =
  match lookup k d with
  | None => None
  | Some dv => Some (match lookup k e with Some v => v | None => dv end)
  end.
Proof.
  unfold merge. induction d as [|[k' v'] tl IH]; cbn [map lookup fst snd]; [reflexivity|].
  destruct (String.eqb_spec k k') as [->|_]; [reflexivity|exact IH].
Qed.

(** the parameter through which a set_default_config call writes key [k] *)
Fixpoint param_for (k : string) (sets : list (string * string)) : option string :=
  match sets with
  | [] => None
  | (p, k') :: tl => if String.eqb k k' then Some p else param_for k tl
  end.

Lemma param_for_notin k sets : ~ In k (map snd sets) -> param_for k sets = None.
Proof.
  induction sets as [|[p k'] tl IH]; cbn [param_for map snd In]; [reflexivity|]. intros H.
  destruct (String.eqb_spec k k') as [->|_]; [tauto|apply IH; tauto].
Qed.

(** one set_default_config call, for any plumbing whose written keys are distinct *)
Lemma set_default_lookup sets : NoDup (map snd sets) -> forall k args d,
  lookup k (set_default sets args d) =
  match param_for k sets with
  | Some p => match lookup p args with Some v => Some v | None => lookup k d end
  | None => lookup k d
  end.
Proof.
  unfold set_default. induction sets as [|[p k'] tl IH]; intros ND k args d; [reflexivity|].
  cbn [map snd] in ND. apply NoDup_cons_iff in ND as [Hnin ND']. cbn [fold_left fst snd param_for].
  rewrite (IH ND'). destruct (String.eqb_spec k k') as [->|Hne].
  - rewrite (param_for_notin _ _ Hnin). destruct (lookup p args); [|reflexivity].
    now rewrite lookup_update, String.eqb_refl.
  - apply String.eqb_neq in Hne.
    destruct (param_for k tl), (lookup p args); rewrite ?lookup_update, ?Hne; reflexivity.
Qed.

(** arbitrary sequences of set_default_config: the value of a key is the one
    given by the last call that passed its parameter, else the initial one *)
Theorem set_default_sequence sets : NoDup (map snd sets) -> forall h k d0,
  lookup k (fold_left (fun d a => set_default sets a d) h d0) =
  fold_left (fun cur a => match param_for k sets with
                          | Some p => match lookup p a with Some v => Some v | None => cur end
                          | None => cur
                          end) h (lookup k d0).
Proof.
  intros ND h. induction h as [|a tl IH]; intros k d0; cbn [fold_left]; [reflexivity|].
  rewrite IH. rewrite (set_default_lookup sets ND). reflexivity.
Qed.

(** identity plumbing: explicit arguments win, key by key *)
Definition idplumb (ks : list string) : list (string * string) := map (fun k => (k, k)) ks.

Lemma lookup_flat_id ks args k :
  lookup k (flat_map (fun kp : string * string =>
              match lookup (snd kp) args with Some v => [(fst kp, v)] | None => [] end) (idplumb ks)) =
  if existsb (String.eqb k) ks then lookup k args else None.
Proof.
  unfold idplumb. induction ks as [|k' tl IH]; cbn [map flat_map existsb fst snd]; [reflexivity|].
  destruct (lookup k' args) as [v|] eqn:El; cbn [app lookup];
    (destruct (String.eqb_spec k k') as [->|_]; cbn [orb]; [|exact IH]).
  - now rewrite El.
  - rewrite IH, El. now destruct (existsb (String.eqb k') tl).
Qed.

Theorem override ks args d k :
  lookup k (call_merge (idplumb ks) args d) =
  match lookup k d with
  | None => None
  | Some dv => Some (if existsb (String.eqb k) ks
                     then match lookup k args with Some v => v | None => dv end
                     else dv)
  end.
Proof.
  unfold call_merge. rewrite merge_lookup, lookup_flat_id.
  now destruct (existsb (String.eqb k) ks).
Qed.
