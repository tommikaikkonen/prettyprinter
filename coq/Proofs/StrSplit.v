(** C02: the splitter loses, duplicates and reorders nothing and never yields
    an empty piece - whatever the fuel, max_len (positive or not), quote,
    pattern and character-class instantiation.  Termination is StrTotal.v. *)
From Coq Require Import Lia.
From PP Require Import Tac Doc PyStr.

Section StrSplit.
Variable printable : N -> bool.
Variable is_space_u : N -> bool.
Variable is_word_u : N -> bool.

Definition ne (s : str) : Prop := s <> [].

Lemma concat_snoc (l : list str) (x : str) : concat (l ++ [x]) = concat l ++ x.
Proof. rewrite concat_app. cbn. now rewrite app_nil_r. Qed.

Lemma firstn_skipn_z k s : firstn_z k s ++ skipn_z k s = s.
Proof.
  revert k. induction s as [|x tl IH]; intros k; cbn [firstn_z skipn_z]; [reflexivity|].
  destruct (k <=? 0)%Z; [reflexivity|]. cbn [app]. now rewrite IH.
Qed.

(** re.split: the runs concatenate back to the string *)
Lemma split_runs_concat sep : forall s cur insep,
  concat (split_runs_aux sep cur insep s) = rev cur ++ s.
Proof.
  induction s as [|c tl IH]; intros cur insep; cbn [split_runs_aux].
  - cbn. now rewrite !app_nil_r.
  - destruct (Bool.eqb (sep c) insep).
    + rewrite IH. cbn [rev]. now rewrite <- app_assoc.
    + cbn [concat]. rewrite IH. reflexivity.
Qed.

Lemma re_split_concat sep s : concat (re_split sep s) = s.
Proof.
  unfold re_split. destruct (Nat.even _).
  - rewrite concat_snoc, app_nil_r. apply (split_runs_concat sep s [] false).
  - apply (split_runs_concat sep s [] false).
Qed.

Lemma tag_alt_fst l : forall w, map fst (tag_alt l w) = l.
Proof. induction l as [|x tl IH]; intros w; cbn [tag_alt map fst]; [reflexivity|]. now rewrite IH. Qed.

Definition nextstr (o : option (str * bool)) : str := match o with Some (p, _) => p | None => [] end.

(** what the loop state still owes, plus what it already yielded, is the string *)
Definition Inv (s : str) (st : slstate) : Prop :=
  concat (rev (sl_out st)) ++ concat (sl_parts st) ++ nextstr (sl_next st)
    ++ concat (map fst (sl_rest st)) = s
  /\ Forall ne (sl_out st) /\ Forall ne (sl_parts st)
  /\ (forall p w, sl_next st = Some (p, w) -> ne p).

Definition emit (parts out : list str) : list str :=
  match parts with [] => out | _ => joinl parts :: out end.
Definition snoc_ne (parts : list str) (x : str) : list str :=
  match x with [] => parts | _ => parts ++ [x] end.
Definition opt_ne (x : str) (w : bool) : option (str * bool) :=
  match x with [] => None | _ => Some (x, w) end.

Definition next_ne (st : slstate) : Prop := forall p w, sl_next st = Some (p, w) -> ne p.

Inductive fetched (st : slstate) (part : str) (w : bool) (rest : list (str * bool)) : Prop :=
| F_next : sl_next st = Some (part, w) -> sl_rest st = rest -> fetched st part w rest
| F_rest : sl_next st = None -> sl_rest st = (part, w) :: rest -> fetched st part w rest.

(** One iteration, seen from outside.  The loop either stops, drops an empty
    part, closes the current line at a cut point of the part it holds
    ([this] goes on the line, [nxt] is kept for the next one), or appends the
    whole part to a line that stays below [max_len].  The third premise of
    [M_cut] is progress: a cut on a line that still has room takes something
    along or closes a line that holds something (StrTotal.v's measure). *)
Inductive sl_move (max_len : Z) (st : slstate) : slres -> Prop :=
| M_done : sl_next st = None -> sl_rest st = [] ->
    sl_move max_len st (SLDone (rev (emit (sl_parts st) (sl_out st))))
| M_skip w rest : sl_next st = None -> sl_rest st = ([], w) :: rest ->
    sl_move max_len st (SLCont (mkSL None rest (sl_parts st) (sl_len st) (sl_out st)))
| M_cut part w rest this nxt : fetched st part w rest -> this ++ nxt = part ->
    ((sl_len st < max_len)%Z -> ne this \/ sl_parts st <> []) ->
    sl_move max_len st (SLCont (mkSL (opt_ne nxt w) rest [] 0 (emit (snoc_ne (sl_parts st) this) (sl_out st))))
| M_append part w rest len : fetched st part w rest -> ne part -> (len < max_len)%Z ->
    sl_move max_len st (SLCont (mkSL None rest (sl_parts st ++ [part]) len (sl_out st))).

Lemma firstn_z_ne k s : (1 <= k)%Z -> ne s -> ne (firstn_z k s).
Proof. intros Hk Hs. destruct s; [congruence|]. cbn [firstn_z]. destruct (k <=? 0)%Z eqn:E; [lia|discriminate]. Qed.

(** a part fetched from the iterator is processed as if it had been held *)
Lemma sl_step_held bytes max_len q st part w rest :
  fetched st part w rest -> ne part ->
  sl_move max_len st
    (sl_step printable bytes max_len q (mkSL (Some (part, w)) rest (sl_parts st) (sl_len st) (sl_out st))).
Proof.
  intros HF Hp. unfold sl_step. cbn [sl_next sl_rest sl_parts sl_len sl_out].
  (* keeping the part for the next line is the cut before it, taking it whole the cut after it *)
  assert (Keep : sl_parts st <> [] ->
            sl_move max_len st (SLCont (mkSL (Some (part, w)) rest [] 0 (joinl (sl_parts st) :: sl_out st)))).
  { intros Hne. generalize (M_cut max_len st part w rest [] part HF eq_refl (fun _ => or_intror Hne)).
    destruct part; [congruence|]. destruct (sl_parts st); [congruence|]. auto. }
  assert (Take : sl_move max_len st (SLCont (mkSL None rest [] 0 (joinl (sl_parts st ++ [part]) :: sl_out st)))).
  { generalize (M_cut max_len st part w rest part [] HF (app_nil_r _) (fun _ => or_introl Hp)).
    destruct part; [congruence|]. destruct (sl_parts st); auto. }
  destruct (_ =? max_len)%Z eqn:Eeq.
  - destruct (negb w && Nat.ltb 1 (length (sl_parts st))) eqn:E; [|exact Take].
    apply Keep. apply andb_prop in E as [_ E]. destruct (sl_parts st); [discriminate E|discriminate].
  - destruct (max_len <? _)%Z eqn:Elt.
    + destruct (negb w && negb _) eqn:E.
      * apply Keep. apply andb_prop in E as [_ E]. destruct (sl_parts st); discriminate.
      * apply (M_cut max_len st part w rest _ _ HF (firstn_skipn_z _ part)).
        intros Hl. left. apply firstn_z_ne; [lia|exact Hp].
    + apply (M_append max_len st part w rest _ HF Hp). lia.
Qed.

Lemma sl_step_move bytes max_len q st :
  next_ne st -> sl_move max_len st (sl_step printable bytes max_len q st).
Proof.
  intros Hn. destruct st as [[[p w]|] rest parts len out].
  - apply sl_step_held; [now constructor|exact (Hn p w eq_refl)].
  - destruct rest as [|[[|c p] w] rest].
    + now apply M_done.
    + now apply (M_skip max_len _ w rest).
    + apply (sl_step_held _ _ _ (mkSL None _ parts len out) (c :: p) w rest); [now apply F_rest|discriminate].
Qed.

Lemma concat_rev_emit parts out : concat (rev (emit parts out)) = concat (rev out) ++ concat parts.
Proof. destruct parts; [now rewrite app_nil_r|]. unfold emit, joinl. cbn [rev]. apply concat_snoc. Qed.

Lemma emit_ne parts out : Forall ne parts -> Forall ne out -> Forall ne (emit parts out).
Proof.
  intros Hp Ho. destruct Hp as [|x tl Hx _]; [exact Ho|]. constructor; [|exact Ho].
  intros E. apply app_eq_nil in E as [E _]. contradiction.
Qed.

Lemma concat_snoc_ne parts x : concat (snoc_ne parts x) = concat parts ++ x.
Proof. destruct x; [now rewrite app_nil_r|]. apply concat_snoc. Qed.

Lemma snoc_ne_ne parts x : Forall ne parts -> Forall ne (snoc_ne parts x).
Proof. intros H. destruct x; [exact H|]. apply Forall_app. split; [exact H|]. now repeat constructor. Qed.

Lemma nextstr_opt_ne x w : nextstr (opt_ne x w) = x.
Proof. now destruct x. Qed.

Lemma opt_ne_ne x w p w' : opt_ne x w = Some (p, w') -> ne p.
Proof. destruct x; intros H; inv H. discriminate. Qed.

Lemma fetched_todo st part w rest : fetched st part w rest ->
  nextstr (sl_next st) ++ concat (map fst (sl_rest st)) = part ++ concat (map fst rest).
Proof. intros [-> ->| -> ->]; reflexivity. Qed.

Lemma step_inv bytes max_len q s st :
  Inv s st ->
  match sl_step printable bytes max_len q st with
  | SLDone out => concat out = s /\ Forall ne out
  | SLCont st' => Inv s st'
  end.
Proof.
  intros (Hc & Ho & Hp & Hn).
  destruct (sl_step_move bytes max_len q st Hn) as [En Er|w rest En Er|part w rest this nxt HF <- _|part w rest len HF Hpart _];
    unfold Inv; cbn [sl_next sl_rest sl_parts sl_len sl_out].
  - rewrite En, Er in Hc. rewrite !app_nil_r in Hc.
    rewrite concat_rev_emit. split; [exact Hc|]. apply Forall_rev. now apply emit_ne.
  - rewrite En, Er in Hc. repeat split; auto; discriminate.
  - rewrite (fetched_todo _ _ _ _ HF) in Hc. rewrite concat_rev_emit, concat_snoc_ne, nextstr_opt_ne.
    repeat split; [now rewrite <- Hc, <- !app_assoc|apply emit_ne; [now apply snoc_ne_ne|exact Ho]|constructor|].
    apply opt_ne_ne.
  - rewrite (fetched_todo _ _ _ _ HF) in Hc. rewrite concat_snoc.
    repeat split; [now rewrite <- Hc, <- !app_assoc|exact Ho|apply Forall_app; split; [exact Hp|now repeat constructor]|discriminate].
Qed.

Lemma loop_inv bytes max_len q s : forall fuel st out,
  Inv s st -> sl_loop printable fuel bytes max_len q st = Some out ->
  concat out = s /\ Forall ne out.
Proof.
  induction fuel as [|fuel IH]; intros st out HI E; [discriminate|]. cbn [sl_loop] in E.
  pose proof (step_inv bytes max_len q s st HI) as Hs.
  destruct (sl_step printable bytes max_len q st) as [o|st']; [now inv E|eauto].
Qed.

(** C02_split_join: join, and no empty piece *)
Theorem str_to_lines_join fuel bytes max_len q s pat lines :
  str_to_lines printable is_space_u is_word_u fuel bytes max_len q s pat = Some lines ->
  concat lines = s /\ Forall ne lines.
Proof.
  unfold str_to_lines. destruct (slen s <=? max_len)%Z.
  - intros E. inv E. destruct s; cbn; [auto|]. rewrite app_nil_r. split; auto. constructor; auto. discriminate.
  - apply loop_inv. unfold Inv. cbn [sl_next sl_rest sl_parts sl_len sl_out nextstr rev concat app].
    rewrite tag_alt_fst. repeat split; auto; [|discriminate].
    destruct pat as [p|]; [apply re_split_concat|].
    destruct (Nat.leb _ 1); apply re_split_concat.
Qed.

End StrSplit.
