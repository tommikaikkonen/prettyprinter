(** C16: the coloured rendering is the plain rendering plus styling chunks;
    every fragment is written in the style of its innermost enclosing token;
    the stream ends in the reset state. *)
From PP Require Import Doc Render Color.

Section CP.
Variable is_space : N -> bool.
Variable sgr : N -> str.
Variable reset : str.

Notation color_items := (color_items sgr reset).
Notation color_lines := (color_lines is_space sgr reset).
Notation color_render := (color_render is_space sgr reset).

(** the lines are coloured as one run of items *)
Definition stripped (ls : list (list sdoc)) : list sdoc := flat_map (strip_line is_space) ls.

Lemma items_app : forall a b stk,
  color_items (a ++ b) stk =
  let '(r1, k1) := color_items a stk in let '(r2, k2) := color_items b k1 in (r1 ++ r2, k2).
Proof.
  induction a as [|x tl IH]; intros b stk; cbn [app Color.color_items]; [now destruct (color_items b stk)|].
  destruct x as [s|i|[t|c|n]|[t|c|n]]; try apply IH.
  - rewrite IH. destruct (color_items tl stk) as [r1 k1]. now destruct (color_items b k1).
  - rewrite IH. destruct (color_items tl stk) as [r1 k1]. now destruct (color_items b k1).
  - rewrite IH. destruct (color_items tl (sgr t :: stk)) as [r1 k1]. now destruct (color_items b k1).
  - destruct stk as [|c0 stk']; [apply IH|].
    rewrite IH. destruct (color_items tl stk') as [r1 k1]. now destruct (color_items b k1).
Qed.

Lemma lines_items : forall ls stk, color_lines ls stk = color_items (stripped ls) stk.
Proof.
  induction ls as [|l tl IH]; intros stk; [reflexivity|]. cbn [Color.color_lines stripped flat_map].
  rewrite items_app. destruct (color_items (strip_line is_space l) stk) as [r1 k1]. now rewrite IH.
Qed.

Lemma render_stripped out : default_render is_space out = flat_map write_sdoc (stripped (as_lines out)).
Proof.
  unfold default_render, stripped. induction (as_lines out) as [|l tl IH]; [reflexivity|].
  cbn [flat_map]. now rewrite flat_map_app, IH.
Qed.

Notation norm_state := (norm_state reset).
Notation decode := (decode reset).

Lemma str_eqb'_refl s : str_eqb' s s = true.
Proof. induction s as [|c t IH]; cbn; [reflexivity|]. now rewrite N.eqb_refl. Qed.
Lemma norm_reset : norm_state reset = None.
Proof. unfold Color.norm_state. now rewrite str_eqb'_refl. Qed.

Definition style_of (t : option N) : option str :=
  match t with Some t => norm_state (sgr t) | None => None end.

(** the terminal's state while [stk] is the colour stack: the last styling string
    written is its top, or the reset string once it is empty.  On a stack of
    token colours it is the style of the top token: [style_of (hd_error toks)]
    and [stack_style (map sgr toks)] agree by cases on [toks]; the invariant
    below starts from the first form, which is the one [innermost] speaks of. *)
Definition stack_style (stk : list str) : option str := match stk with [] => None | c :: _ => norm_state c end.

Lemma items_innermost : forall l toks,
  decode (fst (color_items l (map sgr toks))) (style_of (hd_error toks))
  = (map (fun st => (fst st, style_of (snd st))) (innermost l toks), stack_style (snd (color_items l (map sgr toks)))).
Proof.
  induction l as [|x tl IH]; intros toks; cbn [Color.color_items innermost]; [now destruct toks|].
  destruct x as [s|i|[t|c|n]|[t|c|n]]; try apply IH.
  - specialize (IH toks). destruct (color_items tl (map sgr toks)) as [r k]. cbn [fst snd Color.decode] in *. now rewrite IH.
  - specialize (IH toks). destruct (color_items tl (map sgr toks)) as [r k]. cbn [fst snd Color.decode] in *. now rewrite IH.
  - specialize (IH (t :: toks)). cbn [map] in IH. now destruct (color_items tl (sgr t :: map sgr toks)) as [r k].
  - destruct toks as [|t0 toks']; cbn [map List.tl]; [exact (IH [])|].
    specialize (IH toks'). destruct (color_items tl (map sgr toks')) as [r k]. cbn [fst snd Color.decode] in *.
    rewrite <- IH. f_equal. destruct toks'; [apply norm_reset|reflexivity].
Qed.

Lemma decode_snoc_sgr cs s cur : decode (cs ++ [CSgr s]) cur = (fst (decode cs cur), norm_state s).
Proof.
  revert cur. induction cs as [|[t|t] tl IH]; intros cur; cbn [app Color.decode]; [reflexivity| |apply IH].
  rewrite IH. now destruct (decode tl cur).
Qed.

(** the whole stream: every fragment (with its trailing blanks trimmed as the
    plain renderer does) in the style of its innermost enclosing token, and
    the final state is the reset state *)
Theorem innermost_style out :
  decode (color_render out) None
  = (map (fun st => (fst st, style_of (snd st))) (innermost (stripped (as_lines out)) []), None).
Proof.
  unfold Color.color_render. destruct out as [|x tl]; [reflexivity|]. rewrite lines_items.
  pose proof (items_innermost (stripped (as_lines (x :: tl))) []) as H. cbn [map hd_error style_of] in H.
  destruct (color_items _ []) as [r k]. cbn [fst snd] in H. destruct k as [|c k'].
  - now rewrite app_nil_r, H.
  - now rewrite decode_snoc_sgr, H, norm_reset.
Qed.

(** the texts of the decoded stream are the unstyled stream, and the texts of
    [innermost] are what the plain renderer writes: C16_strip follows from
    C16_innermost *)
Lemma decode_text cs : forall cur, concat (map fst (fst (decode cs cur))) = unstyled cs.
Proof.
  induction cs as [|[s|s] tl IH]; intros cur; cbn [Color.decode]; [reflexivity| |apply IH].
  specialize (IH cur). destruct (decode tl cur). cbn [fst map concat unstyled flat_map chunk_text] in *. now rewrite IH.
Qed.

Lemma innermost_text l : forall toks, concat (map fst (innermost l toks)) = flat_map write_sdoc l.
Proof.
  induction l as [|x tl IH]; intros toks; [reflexivity|]. cbn [innermost flat_map].
  destruct x as [s|i|[t|c|n]|[t|c|n]]; cbn [map fst concat write_sdoc app]; now rewrite IH.
Qed.

Theorem strip_is_plain out : unstyled (color_render out) = default_render is_space out.
Proof.
  rewrite <- (decode_text _ None), innermost_style, render_stripped, <- (innermost_text _ []). cbn [fst].
  now rewrite map_map.
Qed.

End CP.
