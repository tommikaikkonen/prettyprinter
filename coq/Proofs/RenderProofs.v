(** C04 (last clause): the default renderer alters the text the stream denotes
    only by trimming white space at line ends.  The stream is cut into lines
    (a new line at every SLine); on each line only the last text fragment is
    right-stripped, so what is written is the line's text minus a suffix that
    consists of white space only. *)

From PP Require Import Doc Render.

Section RP.
Variable is_space : N -> bool.

Notation rstrip := (rstrip is_space).
Notation render_line := (render_line is_space).
Notation default_render := (default_render is_space).

Definition is_line (x : sdoc) : bool := match x with SLine _ => true | _ => false end.

(** [rstrip], and below [strip_line], reverse, work from the front and reverse
    again: each is known by what it does to a list seen from its end. *)
Lemma rstrip_snoc s c : rstrip (s ++ [c]) = if is_space c then rstrip s else s ++ [c].
Proof.
  unfold Render.rstrip. rewrite rev_app_distr. cbn [rev app].
  destruct (is_space c); [reflexivity|]. cbn [rev]. now rewrite rev_involutive.
Qed.

Lemma rstrip_split s : exists ws, forallb is_space ws = true /\ s = rstrip s ++ ws.
Proof.
  induction s as [|c s (ws & Hw & Hs)] using rev_ind; [exists []; split; reflexivity|].
  rewrite rstrip_snoc. destruct (is_space c) eqn:E.
  - exists (ws ++ [c]). rewrite forallb_app, Hw. cbn [forallb]. rewrite E, app_assoc, <- Hs. now split.
  - exists []. now rewrite app_nil_r.
Qed.

Definition line_shape (l : list sdoc) : Prop :=
  match l with [] => True | _ :: tl => forallb (fun x => negb (is_line x)) tl = true end.

Lemma strip_line_snoc l x :
  strip_line is_space (l ++ [x]) =
  match x with SText s => l ++ [SText (rstrip s)] | _ => strip_line is_space l ++ [x] end.
Proof.
  unfold strip_line. rewrite rev_app_distr. cbn [rev app strip_last_text_rev].
  destruct x; cbn [rev]; now rewrite ?rev_involutive.
Qed.

Lemma shape_snoc r x : line_shape r -> is_line x = false -> line_shape (r ++ [x]).
Proof.
  intros H Hx. destruct r as [|y tl]; [reflexivity|]. cbn [app line_shape] in *.
  rewrite forallb_app, H. cbn. now rewrite Hx.
Qed.

Lemma shape_unsnoc l x : line_shape (l ++ [x]) -> line_shape l /\ (l = [] \/ is_line x = false).
Proof.
  destruct l as [|y tl]; cbn [app line_shape]; [auto|]. rewrite forallb_app. cbn [forallb].
  intros [H Hx]%andb_prop. split; [exact H|]. right. now destruct (is_line x).
Qed.

Lemma line_trim l : line_shape l ->
  exists ws, forallb is_space ws = true /\ flat_map write_sdoc l = render_line l ++ ws.
Proof.
  unfold Render.render_line.
  induction l as [|x l IH] using rev_ind; [exists []; split; reflexivity|].
  intros [Hl Hx]%shape_unsnoc. rewrite strip_line_snoc.
  destruct x as [s|i|a|a]; rewrite !flat_map_app; cbn [flat_map write_sdoc]; rewrite ?app_nil_r.
  - (* a text at the end is the one that is stripped *)
    destruct (rstrip_split s) as (ws & Hw & Hs). exists ws. split; [exact Hw|].
    now rewrite <- app_assoc, <- Hs.
  - (* a line break begins its line: nothing precedes it *)
    destruct Hx as [->|[=]]. exists []. now rewrite app_nil_r.
  - (* a push or a pop writes nothing *) exact (IH Hl).
  - exact (IH Hl).
Qed.

Lemma as_lines_concat : forall l cur, concat (as_lines_aux cur l) = rev cur ++ l.
Proof.
  induction l as [|x tl IH]; intros cur; cbn [as_lines_aux].
  - destruct cur; [reflexivity|]. cbn [concat]. now rewrite !app_nil_r.
  - destruct x; try (rewrite IH; cbn [rev]; now rewrite <- app_assoc).
    cbn [concat]. rewrite IH. reflexivity.
Qed.

(** every line satisfies what the current line satisfies, fragments other than
    line breaks keep and a fresh line break establishes *)
Lemma as_lines_all (Q : list sdoc -> Prop) :
  (forall r x, Q r -> is_line x = false -> Q (r ++ [x])) -> (forall i, Q [SLine i]) ->
  forall l cur, Q (rev cur) -> Forall Q (as_lines_aux cur l).
Proof.
  intros Qs Ql. induction l as [|x tl IH]; intros cur H; cbn [as_lines_aux].
  - destruct cur; constructor; [exact H|constructor].
  - destruct x as [s|i|a|a]; try (apply IH; cbn [rev]; now apply Qs).
    constructor; [exact H|]. apply IH, Ql.
Qed.

Lemma as_lines_shape : forall l cur, line_shape (rev cur) -> Forall line_shape (as_lines_aux cur l).
Proof. apply as_lines_all; [exact shape_snoc|reflexivity]. Qed.

Definition starts_line (l : list sdoc) : Prop := exists i tl, l = SLine i :: tl.

Lemma starts_snoc r x : starts_line r -> starts_line (r ++ [x]).
Proof. intros (i & tl0 & ->). exists i, (tl0 ++ [x]). reflexivity. Qed.

Lemma all_start : forall l cur, starts_line (rev cur) -> Forall starts_line (as_lines_aux cur l).
Proof. apply as_lines_all; [intros r x H _; now apply starts_snoc|intros i; now exists i, []]. Qed.

Lemma tail_start : forall l cur, Forall starts_line (tl (as_lines_aux cur l)).
Proof.
  induction l as [|x t IH]; intros cur; cbn [as_lines_aux].
  - destruct cur; constructor.
  - destruct x as [s|i|a|a]; try apply IH. apply all_start. exists i, []. reflexivity.
Qed.

Theorem render_only_trims l :
  exists lines,
    concat lines = l /\
    plain l = flat_map plain lines /\
    default_render l = flat_map render_line lines /\
    Forall starts_line (tl lines) /\
    Forall (fun line => exists ws, forallb is_space ws = true /\ plain line = render_line line ++ ws) lines.
Proof.
  exists (as_lines l). unfold as_lines.
  pose proof (as_lines_concat l []) as Hc.
  (* the third clause is the definition of the renderer *)
  repeat split.
  - exact Hc.
  - rewrite <- Hc at 1. unfold plain. generalize (as_lines_aux [] l). intros ls.
    induction ls as [|x tl0 IH]; [reflexivity|]. cbn [concat flat_map]. now rewrite flat_map_app, IH.
  - apply tail_start.
  - apply Forall_impl with (2 := as_lines_shape l [] I). exact line_trim.
Qed.

End RP.
