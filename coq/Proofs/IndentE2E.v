(** What the layout engine emits, through C04_membership.  For any document
    and evaluator: the annotation pushes and pops are properly nested, and the
    stream without them is a layout of the document without its annotations.
    For pformat: its document of any value, and what the string printer
    evaluates to, have the shape [printed]; so every line break emitted for ANY
    value (strings included) is indented by a multiple of the indent setting,
    and the pushes and pops are properly nested - at every width, ribbon, depth,
    max_seq_len. *)
From PP Require Import Doc Layout Sem PyVal Consts Printers Pformat Membership IndentMult DocInd CleanDocs StrPieces AnnotProofs.

Theorem engine_wellnested (evs : strp -> Z -> Z -> Z -> Z -> doc) w rw fuel ff smart d out :
  (forall p i c, nopop (evs p i c w rw) = true) -> nopop d = true ->
  best_layout evs fuel ff smart w rw d = Some out -> WN (strip out).
Proof.
  intros He Hd H. apply membership in H as [c' HL]. exact (lay_wellnested evs w rw He _ _ _ _ _ _ HL Hd).
Qed.

Theorem engine_erase (evs : strp -> Z -> Z -> Z -> Z -> doc) w rw fuel ff smart d out :
  best_layout evs fuel ff smart w rw d = Some out ->
  exists c', Lay (evs' evs) w rw MBreak 0 0 (erase d) (drop_ann (strip out)) c'.
Proof. intros H. apply membership in H as [c' HL]. exists c'. now apply lay_erase. Qed.

Lemma nestk_nopop k : forall d, nestk k d = true -> nopop d = true.
Proof. intros d. rewrite nopop_dall. apply dall_mono. now intros []. Qed.

Section E.
Variable printable sp wd lb : N -> bool.

Lemma shape_esc_doc k e : dall (printed k true) (esc_doc e) = true.
Proof. destruct e; [reflexivity|]. cbn [esc_doc]. rewrite shape_cat. apply forallb_map. reflexivity. Qed.

Lemma shape_single_line k b q s : dall (printed k true) (single_line_str printable b q s) = true.
Proof.
  rewrite single_line_str_eq, shape_cat. cbn [forallb]. rewrite shape_annot, shape_cat. cbn [forallb].
  rewrite shape_esc_doc. now destruct b.
Qed.

Lemma shape_str_wrap p d :
  dall (printed (sp_indent p) true) d = true -> dall (printed (sp_indent p) true) (str_wrap sp lb p d) = true.
Proof.
  intros Hd. unfold str_wrap. destruct (sp_wrap p) as [[t name]|]; [|exact Hd].
  apply (shape_build_fncall sp lb (sp_indent p) true (mkCtx (sp_indent p) None MPlain 0 false) eq_refl); cbn [forallb]; try reflexivity.
  now rewrite Hd.
Qed.

Lemma shape_str_frame m k parts :
  forallb (dall (printed k true)) parts = true -> dall (printed k true) (str_frame m k parts) = true.
Proof.
  intros Hp. destruct m; cbn [str_frame]; rewrite shape_ab, ?shape_cat; cbn [forallb];
    rewrite ?shape_nest, ?shape_cat; cbn [forallb]; now rewrite ?Hp.
Qed.

Lemma shape_str_body p q lines : dall (printed (sp_indent p) true) (str_body printable p q lines) = true.
Proof.
  destruct (str_body_form printable p q lines) as [l|lines]; [apply shape_single_line|].
  apply shape_str_frame, shape_intersperse; [reflexivity|]. apply forallb_map. intros x _. apply shape_single_line.
Qed.

Lemma shape_eval_str p i c w rw : dall (printed (sp_indent p) true) (eval_str printable sp wd lb p i c w rw) = true.
Proof.
  destruct (eval_str_shape printable sp wd lb p i c w rw) as (lines & _ & ->). apply shape_str_wrap, shape_str_body.
Qed.

Lemma nk_eval_str p i c w rw : nestk (sp_indent p) (eval_str printable sp wd lb p i c w rw) = true.
Proof. apply (printed_nestk _ true), shape_eval_str. Qed.

(** what python_to_sdocs returns is a layout of the printers' document *)
Lemma sdocs_model_lay fuel ff v indent width rw depth maxlen sort out :
  sdocs_model printable sp wd lb fuel ff v indent width rw depth maxlen sort = Some out ->
  exists c', Lay (evs printable sp wd lb) width rw MBreak 0 0
                 (top_doc sp lb v indent depth maxlen sort) (strip out) c'.
Proof. apply membership. Qed.

Theorem indent_multiple :
  forall (fuel ff : nat) (v : pyval) (indent width rw : Z) (depth : option Z) (maxlen : Z) (sort : bool) (out : list sdoc),
    sdocs_model printable sp wd lb fuel ff v indent width rw depth maxlen sort = Some out ->
    forall j, In (SLine j) out -> (indent | j).
Proof.
  intros fuel ff v indent width rw depth maxlen sort out [c' HL]%sdocs_model_lay j Hj.
  assert (HF : lines_ok indent (strip out)).
  { apply (lay_indent_multiple _ _ _ indent) with (2 := HL);
      [intros p i c <-; apply nk_eval_str|apply nk_top_doc|apply Z.divide_0_r]. }
  apply (proj1 (Forall_forall _ _) HF (SLine j)), filter_In. now split.
Qed.

Lemma evs_nopop w rw p i c : nopop (evs printable sp wd lb p i c w rw) = true.
Proof. apply (nestk_nopop (sp_indent p)), nk_eval_str. Qed.

Lemma top_doc_nopop v indent depth maxlen sort : nopop (top_doc sp lb v indent depth maxlen sort) = true.
Proof. apply (nestk_nopop indent), nk_top_doc. Qed.

Theorem pformat_wellnested fuel ff v indent width rw depth maxlen sort out :
  sdocs_model printable sp wd lb fuel ff v indent width rw depth maxlen sort = Some out -> WN (strip out).
Proof.
  apply engine_wellnested; [apply evs_nopop|apply top_doc_nopop].
Qed.

End E.
