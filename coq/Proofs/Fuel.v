(** C12 (layout engine): on the fragment [clna] (text, concat, nest, group,
    line / softline, hardline, always_break) the main loop finishes within
    M + 1 iterations and every look-ahead within M + 1 iterations, M = the
    total size [sz] of the pending stack: at most (M + 1)^2 loop iterations.

    These are the weight theorems of FuelAll.v read on this fragment: there the
    size bounds the weight, and no contextual document is ever evaluated, so
    the evaluator may be any.  The fragment stops where [wt <= sz] stops: [sz]
    counts an annotation or an align as 1, [wt] as 2 + its body.  Since every
    token of the bundled printers is annotated, their documents lie outside
    it; FuelAll.v covers them. *)
From Coq Require Import Lia.
From PP Require Import Doc Layout DocInd Classic FuelAll.

(** [Classic.is_hard] under a second name: [is_hard_eq] applies to it by conversion *)
Definition is_hardb (d : doc) : bool := match d with HardLine => true | _ => false end.

Fixpoint clna (d : doc) : bool :=
  match d with
  | Nil | Text _ | HardLine => true
  | Cat l => (fix all (l : list doc) : bool := match l with [] => true | x :: tl => clna x && all tl end) l
  | Nest _ x | Group x | AlwaysBreak x => clna x
  | FlatChoice b f | FCN b f => is_hardb b && clna f
  | _ => false
  end.

Fixpoint sz (d : doc) : nat :=
  match d with
  | Cat l => S ((fix sum (l : list doc) : nat := match l with [] => O | x :: tl => (sz x + sum tl)%nat end) l)
  | Nest _ x | Group x | AlwaysBreak x => S (sz x)
  | FlatChoice b f | FCN b f => S (sz b + sz f)
  | _ => 1%nat
  end.

Definition msz (s : list triple) : nat := fold_right (fun t a => (sz (snd t) + a)%nat) O s.
Definition clna_stk (s : list triple) : Prop := Forall (fun t => clna (snd t) = true) s.

Lemma clna_cat l : clna (Cat l) = forallb clna l.
Proof. reflexivity. Qed.
Lemma sz_pos d : (1 <= sz d)%nat.
Proof. destruct d; cbn; lia. Qed.
Lemma msz_cons i m d rest : msz ((i, m, d) :: rest) = (sz d + msz rest)%nat.
Proof. reflexivity. Qed.

Lemma clna_classic : forall d, clna d = true -> classic d = true.
Proof.
  induction d using doc_ind'; try discriminate; auto.
  - rewrite clna_cat, classic_cat, !forallb_forall. rewrite Forall_forall in H. auto.
  - cbn [clna classic]. intros [Eb Ef]%andb_prop. now rewrite (IHd2 Ef), andb_true_r.
  - cbn [clna classic]. intros [Eb Ef]%andb_prop. now rewrite (IHd2 Ef), andb_true_r.
Qed.

Lemma clna_wt cb : forall d, clna d = true -> (wt cb d <= sz d)%nat.
Proof.
  induction d using doc_ind'; intros E; try discriminate E; try apply le_n.
  - apply le_n_S. rewrite clna_cat in E. induction H as [|x tl Hx _ IH]; [apply le_n|].
    apply andb_prop in E as [Ex Et]. apply Nat.add_le_mono; auto.
  - apply le_n_S, IHd, E.
  - apply le_n_S, IHd, E.
  - apply le_n_S, IHd, E.
  - apply andb_prop in E as [->%is_hard_eq Ef]. specialize (IHd2 Ef). cbn [wt sz]. lia.
  - apply andb_prop in E as [->%is_hard_eq Ef]. specialize (IHd2 Ef). cbn [wt sz]. lia.
Qed.

Lemma clna_stk_classic s : clna_stk s -> classic_stk s.
Proof. apply Forall_impl. intros t H. apply classic_t. now apply clna_classic. Qed.

Lemma clna_mwt cb s : clna_stk s -> (mwt cb s <= msz s)%nat.
Proof.
  induction 1 as [|[[i m] d] s Hd _ IH]; [reflexivity|]. rewrite msz_cons, mwt_cons.
  pose proof (clna_wt cb d Hd). lia.
Qed.

Section F.
Variable evs : strp -> Z -> Z -> Z -> Z -> doc.

(* run with the constant evaluator, whose results weigh 1 *)
Theorem fits_total : forall fuel smart w rw mnl maxw cl stk,
  clna_stk stk -> (msz stk < fuel)%nat -> fits_loop evs fuel smart w rw mnl maxw cl stk <> None.
Proof.
  intros fuel smart w rw mnl maxw cl stk Hc Hf.
  rewrite (fits_loop_evs evs (fun _ _ _ _ _ => Nil)) by now apply clna_stk_classic.
  pose proof (clna_mwt (fun _ => 1%nat) stk Hc).
  apply (fits_total_all (fun _ => 1%nat)); [reflexivity|lia].
Qed.

Theorem layout_total : forall fuel ff smart w rw st,
  clna_stk (ls_stk st) -> (msz (ls_stk st) < fuel)%nat -> (msz (ls_stk st) <= ff)%nat ->
  layout_loop evs fuel ff smart w rw st <> None.
Proof.
  intros fuel ff smart w rw st Hc Hf Hff.
  rewrite (layout_loop_evs evs (fun _ _ _ _ _ => Nil)) by now apply clna_stk_classic.
  pose proof (clna_mwt (fun _ => 1%nat) _ Hc).
  apply (layout_total_all (fun _ => 1%nat)); [reflexivity|lia|lia].
Qed.

End F.
