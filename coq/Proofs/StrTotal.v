(** C02 / C12: str_to_lines terminates for every positive max_len (however
    small - not only for the floor of 10 the caller guarantees), with the
    fuel the model gives it. *)
From Coq Require Import Lia.
From PP Require Import Doc PyStr Printers StrSplit.

Local Open Scope nat_scope.

Section StrTotal.
Variable printable : N -> bool.
Variable is_space_u : N -> bool.
Variable is_word_u : N -> bool.

Definition chars (st : slstate) : nat :=
  length (nextstr (sl_next st)) + length (concat (map fst (sl_rest st))).

(** The measure, by the four moves of [StrSplit.sl_move]: dropping an empty
    part shortens [rest]; appending the held part to the line takes at least
    one character out of what is still to be read - twice its count, since
    that may also turn the flag "the line has parts" on; closing the line at
    a cut takes characters out or, when the cut is before the part, turns the
    flag off. *)
Definition mu (st : slstate) : nat :=
  2 * chars st + length (sl_rest st) + match sl_parts st with [] => 0 | _ => 1 end.

Definition Inv2 (max_len : Z) (st : slstate) : Prop := (sl_len st < max_len)%Z /\ next_ne st.

(* [lia] does not see through [str] that a [length] of a [str] is a [length] of a [list N] *)
Ltac slia := unfold str in *; lia.

Lemma fetched_mu st part w rest : fetched st part w rest ->
  2 * (length part + length (concat (map fst rest))) + length rest
    + match sl_parts st with [] => 0 | _ => 1 end <= mu st.
Proof.
  unfold mu, chars. intros [-> ->| -> ->]; cbn [nextstr map fst concat length]; rewrite ?app_length; slia.
Qed.

Lemma step_measure bytes max_len q st :
  (0 < max_len)%Z -> Inv2 max_len st ->
  match sl_step printable bytes max_len q st with
  | SLDone _ => True
  | SLCont st' => mu st' < mu st /\ Inv2 max_len st'
  end.
Proof.
  intros Hpos [Hlen Hnext].
  destruct (sl_step_move printable bytes max_len q st Hnext)
    as [|w rest En Er|part w rest this nxt HF <- Hprog|part w rest len HF Hpart Hl];
    [exact I|unfold Inv2; cbn [sl_next sl_len]..].
  - split; [|split; [exact Hlen|discriminate]].
    unfold mu, chars. rewrite En, Er. cbn. slia.
  - split; [|split; [lia|intros p w'; apply opt_ne_ne]].
    eapply Nat.lt_le_trans; [|exact (fetched_mu _ _ _ _ HF)]. rewrite app_length.
    unfold mu, chars. cbn [sl_next sl_rest sl_parts]. rewrite nextstr_opt_ne.
    destruct (Hprog Hlen) as [Ht|Hp]; [destruct this; [congruence|cbn [length]; slia]|].
    destruct (sl_parts st); [congruence|slia].
  - split; [|split; [exact Hl|discriminate]].
    eapply Nat.lt_le_trans; [|exact (fetched_mu _ _ _ _ HF)].
    unfold mu, chars. cbn [sl_next sl_rest sl_parts nextstr length].
    destruct part; [congruence|]. destruct (sl_parts st); cbn [app length]; slia.
Qed.

Lemma loop_total bytes max_len q : (0 < max_len)%Z -> forall fuel st,
  Inv2 max_len st -> mu st < fuel -> sl_loop printable fuel bytes max_len q st <> None.
Proof.
  intros Hpos. induction fuel as [|fuel IH]; intros st HI Hm; [lia|]. cbn [sl_loop].
  pose proof (step_measure bytes max_len q st Hpos HI) as Hs.
  destruct (sl_step printable bytes max_len q st) as [o|st']; [discriminate|].
  destruct Hs as [Hlt HI']. apply IH; [exact HI'|lia].
Qed.

Lemma split_runs_len sep : forall s cur insep,
  length (split_runs_aux sep cur insep s) <= length s + 1.
Proof.
  induction s as [|c tl IH]; intros cur insep; cbn [split_runs_aux length]; [lia|].
  destruct (Bool.eqb (sep c) insep); [specialize (IH (c :: cur) insep); lia|].
  cbn [length]. specialize (IH [c] (sep c)). lia.
Qed.

Lemma re_split_len sep s : length (re_split sep s) <= length s + 2.
Proof.
  unfold re_split. pose proof (split_runs_len sep s [] false).
  destruct (Nat.even _); [rewrite app_length; cbn [length]|]; lia.
Qed.

Lemma tag_alt_len l : forall w, length (tag_alt l w) = length l.
Proof. induction l as [|x tl IH]; intros w; cbn; [reflexivity|]. now rewrite IH. Qed.

(** C02_split_total *)
Theorem str_to_lines_total bytes max_len q s pat :
  (0 < max_len)%Z ->
  str_to_lines printable is_space_u is_word_u (big_fuel_of s) bytes max_len q s pat <> None.
Proof.
  intros Hpos. unfold str_to_lines. destruct (slen s <=? max_len)%Z; [discriminate|].
  (* whichever pattern is chosen, the parts are the string split at a class of separators *)
  assert (H : forall sep, mu (mkSL None (tag_alt (re_split sep s) false) [] 0 []) < big_fuel_of s).
  { intros sep. unfold mu, chars, big_fuel_of. cbn [sl_next sl_rest sl_parts nextstr length].
    rewrite tag_alt_len, tag_alt_fst, re_split_concat. pose proof (re_split_len sep s). lia. }
  apply loop_total; [exact Hpos|split; [exact Hpos|discriminate]|].
  destruct pat as [p|]; [apply H|]. destruct (Nat.leb _ 1); apply H.
Qed.

(** the guard is needed: with max_len = 0 the loop spins (the Python function
    asserts max_len > 0; the caller's floor of 10 keeps it away) *)
Example str_to_lines_zero_diverges :
  str_to_lines (fun _ => true) (fun _ => false) (fun _ => true) 50 false 0 39%N [97; 98]%N None = None.
Proof. vm_compute. reflexivity. Qed.

End StrTotal.
