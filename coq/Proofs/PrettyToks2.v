(** What PrettyToks1.v says of calls, for the printers of numbers, special
    floats, frozensets, sequences and dicts. *)

From PP Require Import Doc PyVal Printers PyExpr DocToks PrettyToks1 ValInd.

Section PrettyToks2.
Variable is_space_u : N -> bool.
Variable is_linebreak : N -> bool.

(** a trailing comment that is not empty: the last argument of [expr_of] *)
Definition trb (tr : option str) : bool := match tr with Some (_ :: _) => true | _ => false end.

Lemma num_d_DT ctx t base lit sub le : DT (Printers.tok t lit) (etoks le) -> wf_sub sub ->
  DT (num_d is_space_u is_linebreak ctx t base lit sub) (etoks (enum (ectx_of ctx) le base sub)).
Proof.
  intros Hl Hw. unfold num_d, enum. rewrite is0_ectx, <- ctor_name. destruct (depth_is0 ctx).
  - now apply call_ellipsis_DT, wf_ctor.
  - destruct sub as [w|]; [now apply call1_DT|exact Hl].
Qed.

Lemma special_float_d_DT ctx name sub : wf_sub sub ->
  DT (special_float_d is_space_u is_linebreak ctx name sub) (etoks (especial (ectx_of ctx) name sub)).
Proof.
  intros Hw. unfold special_float_d, especial. rewrite is0_ectx, <- ctor_name. apply (wf_ctor _ n_float) in Hw.
  destruct (depth_is0 ctx); cbv zeta; [now apply call_ellipsis_DT|].
  apply call_alt_d_DT; [exact Hw| |constructor].
  constructor; [|constructor]. exact (str_doc_DT (nested_hang ctx) false name None false I).
Qed.

Lemma frozen_d_DT ctx l sub lst : wf_sub sub ->
  DT (lst tt) (etoks (eseq (ectx_of ctx) KList (length l) None false (eelems (ectx_of ctx) l))) ->
  DT (frozen_d is_space_u is_linebreak ctx (length l) sub lst) (etoks (efrozen (ectx_of ctx) l sub)).
Proof.
  intros Hw Hl. unfold frozen_d, efrozen. rewrite <- ctor_name. apply (wf_ctor _ n_frozenset) in Hw.
  destruct l as [|x tl]; [now apply call_noargs_DT|].
  apply call_alt_d_DT; [exact Hw| |constructor]. constructor; [exact Hl|constructor].
Qed.

(** the right-hand side in the shape [eseq] and [edict] unfold to; [base] stands in the branch not taken *)
Lemma sub_wrap_DT ctx hug sub base d e : wf_sub sub -> DT d (etoks e) ->
  DT (sub_wrap is_space_u is_linebreak ctx hug sub d)
     (etoks (if match sub with None => true | Some _ => false end then e
             else ECall (match sub with Some w => cn_name w | None => base end) [e] [])).
Proof. intros Hw Hd. destruct sub; [now apply call1_DT|exact Hd]. Qed.

Lemma is_some_notice ctx len tr :
  is_some (notice ctx len (truthy tr)) = (c_maxlen ctx <? Z.of_nat len)%Z || trb tr.
Proof. unfold notice. destruct (_ <? _)%Z; [reflexivity|]. now destruct tr as [[|c s]|]. Qed.

Lemma sepcomma_snoc_nil tss : tss <> [] -> sepcomma (tss ++ [[]]) = sepcomma tss ++ [p_comma].
Proof.
  induction tss as [|x tl IH]; [congruence|]. intros _.
  destruct tl as [|y tl']; [reflexivity|].
  cbn [app]. rewrite !sepcomma_cons. cbn [app] in IH. rewrite IH by discriminate.
  now rewrite <- app_assoc.
Qed.

Lemma DT_brackets k : DT (lbr (knat k)) [opener k] /\ DT (rbr (knat k)) [closer k].
Proof. destruct k; split; dt. Qed.
Lemma seq_ctor_name k sub :
  cn_name (seq_ctor (knat k) sub) = match sub with Some w => cn_name w | None => kind_name k end.
Proof. now destruct sub, k. Qed.

(** the literal ([seq_lit], its parts as variables): the elements shown, then
    the notice if there is one; a comma after the last element when the notice
    follows it or [dangle] asks for one *)
Lemma seq_lit_DT ctx k lft rgt docs shown (tr' : option str) (dangle : bool) :
  DT lft [opener k] -> DT rgt [closer k] -> Forall2 DT docs (map etoks shown) ->
  (shown = [] -> dangle = false) ->
  DT match tr' with
     | Some t => sequence_of_docs is_space_u is_linebreak ctx lft
                   (docs ++ [commentdoc is_space_u is_linebreak t]) rgt false true
     | None => sequence_of_docs is_space_u is_linebreak ctx lft docs rgt dangle false
     end
     (etoks (ESeq k shown match shown with [] => false | _ => is_some tr' || dangle end)).
Proof.
  intros Hl Hr Hd Hne. destruct tr' as [t|]; cbn [is_some orb].
  - assert (Hc : Forall2 DT (docs ++ [commentdoc is_space_u is_linebreak t]) (map etoks shown ++ [[]])).
    { apply Forall2_app; [exact Hd|]. constructor; [apply DT_comment|constructor]. }
    pose proof (sequence_of_docs_DT is_space_u is_linebreak ctx lft _ rgt false true _ _ _ Hl Hr Hc) as H.
    destruct shown; [exact H|]. rewrite sepcomma_snoc_nil, <- app_assoc in H by discriminate. exact H.
  - destruct shown; [rewrite Hne by reflexivity|];
      exact (sequence_of_docs_DT is_space_u is_linebreak ctx lft _ rgt _ false _ _ _ Hl Hr Hd).
Qed.

Lemma seq_d_DT ctx k sub tr els eels : wf_sub sub ->
  Forall2 DT (els tt) (map etoks eels) ->
  DT (seq_d is_space_u is_linebreak ctx (knat k) (length eels) sub (truthy tr) els)
     (etoks (eseq (ectx_of ctx) k (length eels) sub (trb tr) eels)).
Proof.
  intros Hw Hels. rewrite seq_d_eq. unfold eseq. rewrite is0_ectx.
  pose proof (wf_ctor sub _ Hw : wf_cls (seq_ctor (knat k) sub)) as Hc. destruct (DT_brackets k) as [Hl Hr].
  destruct (length eels) as [|n] eqn:El.
  - (* empty: [] and () are literals, set() and cls() calls *)
    destruct sub as [w|]; [now apply call_noargs_DT|]. destruct k; [dt|dt|now apply call_noargs_DT].
  - destruct (depth_is0 ctx).
    + (* no depth left: [...] and (...), but set(...) *)
      destruct k; cbn [knat Nat.ltb Nat.leb]; [apply sub_wrap_DT; [exact Hw|dt]..|].
      rewrite <- seq_ctor_name. now apply call_ellipsis_DT.
    + apply sub_wrap_DT; [exact Hw|]. cbn [ectx_of e_maxlen]. rewrite <- is_some_notice.
      replace (match k with KTuple => Nat.eqb (S n) 1 | _ => false end) with (Nat.eqb (knat k) 1 && Nat.eqb (S n) 1)
        by now destruct k.
      apply seq_lit_DT; [exact Hl|exact Hr| |]; unfold seq_shown; destruct n.
      * exact Hels.
      * rewrite <- take_z_map. now apply Forall2_take_z.
      * (* a sole element is shown whatever max_seq_len is *)
        destruct eels; [discriminate El|discriminate].
      * now rewrite andb_false_r.
Qed.

(** a triple of the dict printer (key, value, the value once more for the
    comment-above variant) against a pair of the specification *)
Definition TR (t : doc * doc * (unit -> doc)) (p : expr * expr) : Prop :=
  DT (fst (fst t)) (etoks (fst p)) /\ DT (snd (fst t)) (etoks (snd p)) /\ DT (snd t tt) (etoks (snd p)).

Lemma dict_parts_length ctx l : length (fst (dict_parts is_space_u is_linebreak ctx l)) = length l.
Proof.
  induction l as [|[[k x] xp] tl IH]; [reflexivity|]. rewrite dict_parts_cons. cbn [length]. now rewrite IH.
Qed.

Lemma dict_d_DT ctx sub tr sorted triples pairs : wf_sub sub ->
  Forall2 TR (triples tt) pairs ->
  DT (dict_d is_space_u is_linebreak ctx sub (truthy tr) sorted triples)
     (etoks (edict (ectx_of ctx) sub sorted pairs (trb tr))).
Proof.
  intros Hw HF. rewrite dict_d_eq. unfold edict. rewrite is0_ectx.
  destruct (depth_is0 ctx); [apply sub_wrap_DT; [exact Hw|dt]|].
  cbn [ectx_of e_maxlen e_sort]. rewrite <- (Forall2_length _ _ _ HF), <- is_some_notice.
  change (take_z _ (if c_sort ctx then reorder pairs sorted else pairs)) with (dict_shown ctx sorted pairs).
  assert (HS : Forall2 TR (dict_shown ctx sorted (triples tt)) (dict_shown ctx sorted pairs)).
  { apply Forall2_take_z. destruct (c_sort ctx); [now apply Forall2_reorder|exact HF]. }
  pose proof (dict_parts_DT is_space_u is_linebreak (fun p => etoks (fst p)) (fun p => etoks (snd p)) ctx _ _ HS) as HP.
  pose proof (dict_parts_length ctx (dict_shown ctx sorted (triples tt))) as Hlen. rewrite (Forall2_length _ _ _ HS) in Hlen.
  (* the literal; the notice is an item of its own *)
  assert (Hd : DT (dict_lit is_space_u is_linebreak ctx (truthy tr) sorted (triples tt))
                  (etoks (EDict (dict_shown ctx sorted pairs)))).
  { unfold dict_lit, dict_items. destruct (notice _ _ _); dt. }
  destruct sub as [w|]; [|exact Hd].
  (* a subclass instance: cls({..}), but cls() when nothing stands between the braces *)
  unfold dict_items. destruct (notice _ _ _), (dict_shown ctx sorted pairs), (fst (dict_parts _ _ ctx _));
    try discriminate Hlen; try (now apply (sub_wrap_DT ctx true (Some w) n_dict)). now apply call_noargs_DT.
Qed.

End PrettyToks2.
