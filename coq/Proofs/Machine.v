(** The two loops of Layout.v on any document: what one iteration of the main
    loop does to the output, what a finished run says about it, that the
    look-ahead's answer does not depend on its fuel and is "fits" once it is
    so after the next iteration, and that pushing a list keeps whatever holds
    of the entries pushed, on one stack or between two. *)
From PP Require Import Doc Layout.

Lemma rev_cons_app {A} (x : A) o new : rev (x :: o) ++ new = rev o ++ x :: new.
Proof. cbn [rev]. now rewrite <- app_assoc. Qed.

Lemma Forall_push_all (P : triple -> Prop) i m l rest :
  (forall x, In x l -> P (i, m, x)) -> Forall P rest -> Forall P (push_all i m l rest).
Proof.
  intros Hl Hr. apply Forall_app; split; [|exact Hr].
  apply Forall_forall. intros t (x & <- & Hx)%in_map_iff. auto.
Qed.

Lemma push_all_rel (R : list triple -> list triple -> Prop) i i' m m' l F M :
  (forall x F M, R F M -> R ((i, m, x) :: F) ((i', m', x) :: M)) ->
  R F M -> R (push_all i m l F) (push_all i' m' l M).
Proof.
  intros Hc HR. unfold push_all. induction l as [|x tl IH]; cbn [map app]; [exact HR|].
  apply Hc, IH.
Qed.

Section Machine.
Variable evs : strp -> Z -> Z -> Z -> Z -> doc.

Lemma step_out ff smart w rw st :
  match layout_step evs ff smart w rw st with
  | LDone out => ls_stk st = [] /\ out = rev (ls_out st)
  | LCont st' => exists e, ls_out st' = e ++ ls_out st
  | LFuel => True
  end.
Proof.
  destruct st as [stk col out]. unfold layout_step. cbn [ls_stk ls_col ls_out].
  destruct stk as [|[[i m] d] rest]; [now split|].
  destruct d; try (now exists []); try (now eexists [_]).
  - destruct (fits _ _ _ _ _ _ _ _) as [[|]|]; [now exists []..|exact I].
  - destruct l as [|first [|ws [|x3 tl3]]]; [now exists []|..];
      (destruct (fits _ _ _ _ _ _ _ _) as [?|]; [|exact I]); try (now exists []).
    destruct (fits _ _ _ _ _ _ _ _) as [?|]; [now exists []|exact I].
Qed.

Lemma loop_out_prefix ff smart w rw fuel : forall st out,
  layout_loop evs fuel ff smart w rw st = Some out -> exists new, out = rev (ls_out st) ++ new.
Proof.
  induction fuel as [|fuel IH]; intros st out E; [discriminate|]. cbn [layout_loop] in E.
  pose proof (step_out ff smart w rw st) as Hs.
  destruct (layout_step evs ff smart w rw st) as [out0|st'|]; [| |discriminate].
  - destruct Hs as [_ ->]. inversion E. exists []. now rewrite app_nil_r.
  - apply IH in E as [new ->]. destruct Hs as [e ->]. rewrite rev_app_distr, <- app_assoc. eauto.
Qed.

(** the hypothesis again, with the item last emitted moved from [new] to the
    output: the form in which an induction hypothesis about a run takes it *)
Lemma emit_inv ff sm w0 rw0 fuel M col x o new :
  layout_loop evs fuel ff sm w0 rw0 (mkL M col (x :: o)) = Some (rev o ++ new) ->
  exists new', new = x :: new' /\
    layout_loop evs fuel ff sm w0 rw0 (mkL M col (x :: o)) = Some (rev (x :: o) ++ new').
Proof.
  intros HL. pose proof (loop_out_prefix _ _ _ _ _ _ _ HL) as [new' E]. cbn [ls_out] in E.
  rewrite rev_cons_app in E. apply app_inv_head in E. subst new.
  exists new'. split; [reflexivity|]. now rewrite rev_cons_app.
Qed.

Lemma fits_loop_det : forall n1 n2 smart w rw mnl maxw cl S b1 b2,
  fits_loop evs n1 smart w rw mnl maxw cl S = Some b1 ->
  fits_loop evs n2 smart w rw mnl maxw cl S = Some b2 -> b1 = b2.
Proof.
  induction n1 as [|n1 IH]; intros n2 smart w rw mnl maxw cl S b1 b2 H1 H2; [discriminate|].
  destruct n2 as [|n2]; [discriminate|]. cbn [fits_loop] in H1, H2.
  destruct (fits_step evs smart w rw mnl maxw cl S); try congruence. eauto.
Qed.

Lemma fits_true_step smart w rw mnl maxw cl F :
  match fits_step evs smart w rw mnl maxw cl F with
  | FTrue => True
  | FFalse => False
  | FCont cl1 F1 => exists nf, fits_loop evs nf smart w rw mnl maxw cl1 F1 = Some true
  end -> exists nf, fits_loop evs nf smart w rw mnl maxw cl F = Some true.
Proof.
  destruct (fits_step evs smart w rw mnl maxw cl F) as [| |cl1 F1] eqn:E;
    [intros _; exists 1%nat|easy|intros [nf H]; exists (S nf)]; cbn [fits_loop]; now rewrite E.
Qed.

End Machine.
